(* C08 -- reads racing with flush, retirement and reuse return only genuine values.
   Model/Extent.v: one durable generation's extent, any number of readers (acquire_extent /
   pread / release + identity check), the retirement pipeline of the write-buffer worker (set the
   retired bit, wait for zero readers, write markers, wait again, release) and later owners that
   overwrite the freed blocks.  The theorems hold for every number of readers and every schedule. *)
From Coq Require Import List NArith Bool Arith.
From Feox Require Import Model.Extent Proofs.ExtentProofs.
Import ListNotations.

Theorem protocol_invariant_reachable :
  forall sched s, EInv s -> EInv (erun s sched).
Proof. exact erun_EInv. Qed.
Check protocol_invariant_reachable :
  forall sched s, EInv s -> EInv (erun s sched) .
Print Assumptions protocol_invariant_reachable.

(* what a reader gets: while pinned the pread sees the generation's own record; a completed
   read returned exactly that or reported a stale extent -- never a deletion marker, never
   another key's bytes *)
Theorem read_returns_the_generation_or_stale :
  forall n sched i,
  let s := erun (einit n) sched in
  (forall c, nth_error (rs s) i = Some (RGot c) -> c = CData) /\
  (forall r, nth_error (rs s) i = Some (RDone r) -> r = Some CData \/ r = None).
Proof. exact read_is_genuine. Qed.
Check read_returns_the_generation_or_stale :
  forall n sched i,
  let s := erun (einit n) sched in
  (forall c, nth_error (rs s) i = Some (RGot c) -> c = CData) /\
  (forall r, nth_error (rs s) i = Some (RDone r) -> r = Some CData \/ r = None) .
Print Assumptions read_returns_the_generation_or_stale.

(* the device blocks of a generation are not overwritten while a reader is still reading them *)
Theorem blocks_change_only_when_unpinned :
  forall s a, EInv s -> cont (estep s a) <> cont s -> readers s = 0.
Proof. exact pinned_not_overwritten. Qed.
Check blocks_change_only_when_unpinned :
  forall s a, EInv s -> cont (estep s a) <> cont s -> readers s = 0.
Print Assumptions blocks_change_only_when_unpinned.

Theorem retired_bit_stops_new_readers :
  forall s i, retired s = true -> nth_error (rs s) i = Some RStart ->
  nth_error (rs (estep s (Reader i))) i = Some (RDone None) /\ readers (estep s (Reader i)) = readers s.
Proof. exact no_new_reader_after_bit. Qed.
Check retired_bit_stops_new_readers :
  forall s i, retired s = true -> nth_error (rs s) i = Some RStart ->
  nth_error (rs (estep s (Reader i))) i = Some (RDone None) /\ readers (estep s (Reader i)) = readers s .
Print Assumptions retired_bit_stops_new_readers.

(* the run-time monitor applied to real pin/write traces flags a write exactly when it overlaps an open pin *)
Theorem monitor_flags_write_into_pinned_extent :
  forall pinned0 i s n t,
  emon pinned0 (EWrite s n :: t) i = Some i <-> existsb (fun p => overlaps s n (fst p) (snd p)) pinned0 = true.
Proof. exact emon_flags_overlap. Qed.
Check monitor_flags_write_into_pinned_extent :
  forall pinned0 i s n t,
  emon pinned0 (EWrite s n :: t) i = Some i <-> existsb (fun p => overlaps s n (fst p) (snd p)) pinned0 = true .
Print Assumptions monitor_flags_write_into_pinned_extent.

(* ... and it is exact over whole traces: it accepts iff no write of the trace overlaps a pin that
   is open at the moment the write is issued *)
Theorem monitor_accepts_iff_no_write_into_an_open_pin :
  forall evs pinned0 i,
  emon pinned0 evs i = None <->
  forall j s n, nth_error evs j = Some (EWrite s n) ->
    existsb (fun p => overlaps s n (fst p) (snd p)) (pins_after pinned0 (firstn j evs)) = false.
Proof. exact emon_none_iff_no_write_into_open_pin. Qed.
Check monitor_accepts_iff_no_write_into_an_open_pin :
  forall evs pinned0 i,
  emon pinned0 evs i = None <->
  forall j s n, nth_error evs j = Some (EWrite s n) ->
    existsb (fun p => overlaps s n (fst p) (snd p)) (pins_after pinned0 (firstn j evs)) = false.
Print Assumptions monitor_accepts_iff_no_write_into_an_open_pin.
(* non-vacuity: a reader pinned before the retirer starts holds the markers back *)
Example pinned_reader_delays_markers :
  let s := erun (einit 2) [Reader 0; Retirer; Retirer; Retirer; Reader 1; Reader 0; Retirer; Retirer] in
  w s = WBit /\ cont s = CData /\ nth_error (rs s) 1 = Some (RDone None) /\ nth_error (rs s) 0 = Some (RGot CData).
Proof. vm_compute. repeat split; reflexivity. Qed.
Example release_lets_retirement_proceed :
  let s := erun (einit 1) [Reader 0; Retirer; Reader 0; Reader 0; Retirer; Retirer; Retirer; Retirer; Reuser 7%N] in
  cont s = COther 7%N /\ nth_error (rs s) 0 = Some (RDone (Some CData)).
Proof. vm_compute. split; reflexivity. Qed.
Example monitor_example :
  emon [] [EPin 20 2; EWrite 30 1; EWrite 21 1; EUnpin 20 2]%N 0%N = Some 2%N /\
  emon [] [EPin 20 2; EUnpin 20 2; EWrite 21 1]%N 0%N = None.
Proof. vm_compute. split; reflexivity. Qed.

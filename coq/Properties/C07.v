(* C07 -- concurrent operations on a key are atomic and timestamp-ordered (linearizable).
   Model/Sched.v renders the per-key protocol of operations.rs / internal.rs / atomic.rs /
   json_patch.rs at the granularity of hook H7 (one hash-table access per step).  The main
   theorem holds for every number of threads, every program and every schedule, with no bound.
   Model/Lin.v is an executable checker for real histories; it is proved sound. *)
From Coq Require Import List NArith ZArith Bool Permutation.
From Feox Require Import Model.Sched Model.Lin Proofs.SchedProofs Proofs.SchedJustify Proofs.LinProofs.
Import ListNotations.
Local Open Scope N_scope.

(* every schedule: the commits, in the order of the responses, are a legal sequential
   last-writer-wins history (up to flagged refusals that change nothing) ending in the final
   contents, and every thread received exactly the responses of its own commits in program order *)
Theorem all_schedules_linearizable :
  forall shards progs sched fuel,
  let w := finish fuel (run (init_world shards progs) sched) in
  lin_rel (fun _ => None) (map snd (w_log w)) (abs (w_sh w)) /\
  forall i th, nth_error (w_th w) i = Some th ->
    nth_error progs i = Some (map c_op (commits_of i (w_log w)) ++ t_ops th) /\
    rev (t_out th) = map c_resp (commits_of i (w_log w)).
Proof. exact every_schedule_linearizable. Qed.
Check all_schedules_linearizable :
  forall shards progs sched fuel,
  let w := finish fuel (run (init_world shards progs) sched) in
  lin_rel (fun _ => None) (map snd (w_log w)) (abs (w_sh w)) /\
  forall i th, nth_error (w_th w) i = Some th ->
    nth_error progs i = Some (map c_op (commits_of i (w_log w)) ++ t_ops th) /\
    rev (t_out th) = map c_resp (commits_of i (w_log w)) .
Print Assumptions all_schedules_linearizable.

(* one step of one thread: either nothing visible changes, or the call commits: its response is
   the sequential spec's response on the current contents (guarded re-validation with pointer
   identity makes the optimistic read current), or it is a flagged refusal with no effect *)
Theorem guarded_step_is_linearization_point :
  forall s o p s' r c, table_ok s -> pc_ok s o p -> opstep s o p = (s', r, c) -> step_post s o s' r c.
Proof. exact opstep_sim. Qed.
Check guarded_step_is_linearization_point :
  forall s o p s' r c, table_ok s -> pc_ok s o p -> opstep s o p = (s', r, c) -> step_post s o s' r c .
Print Assumptions guarded_step_is_linearization_point.

(* the commit is a step of the answering call itself, so it lies between invocation and response *)
Theorem commit_lies_within_the_call :
  forall w i c, w_log (tstep w i) = w_log w ++ [(i, c)] ->
  exists th rest, nth_error (w_th w) i = Some th /\ t_ops th = c_op c :: rest /\
    (table_ok (w_sh w) -> pc_ok (w_sh w) (c_op c) (t_pc th) ->
     nth_error (w_th (tstep w i)) i = Some (mkth rest PStart (c_resp c :: t_out th))).
Proof. exact commit_is_own_step. Qed.
Check commit_lies_within_the_call :
  forall w i c, w_log (tstep w i) = w_log w ++ [(i, c)] ->
  exists th rest, nth_error (w_th w) i = Some th /\ t_ops th = c_op c :: rest /\
    (table_ok (w_sh w) -> pc_ok (w_sh w) (c_op c) (t_pc th) ->
     nth_error (w_th (tstep w i)) i = Some (mkth rest PStart (c_resp c :: t_out th))).
Print Assumptions commit_lies_within_the_call.

Theorem accepted_write_never_lands_on_newer :
  forall st1 c st2 v0 t0, commit_ok st1 c st2 -> st1 = Some (v0, t0) -> st2 <> st1 -> t0 < c_ts c.
Proof. exact accepted_write_on_older. Qed.
Check accepted_write_never_lands_on_newer :
  forall st1 c st2 v0 t0, commit_ok st1 c st2 -> st1 = Some (v0, t0) -> st2 <> st1 -> t0 < c_ts c.
Print Assumptions accepted_write_never_lands_on_newer.

Theorem no_increment_is_lost :
  forall k st0 log st,
  lin_rel st0 log st -> st0 k = None -> Forall (incr_commit k) log ->
  match counter_after k log with
  | None => st k = None
  | Some z => exists t, st k = Some (VC z, t)
  end.
Proof. exact no_lost_increment. Qed.
Check no_increment_is_lost :
  forall k st0 log st,
  lin_rel st0 log st -> st0 k = None -> Forall (incr_commit k) log ->
  match counter_after k log with
  | None => st k = None
  | Some z => exists t, st k = Some (VC z, t)
  end.
Print Assumptions no_increment_is_lost.

Theorem one_insert_if_absent_wins :
  forall k st0 log st,
  lin_rel st0 log st -> Forall (not_delete_of k) log ->
  (length (filter (ifabsent_win k) log) + (match st0 k with Some _ => 1 | None => 0 end) <= 1)%nat /\
  (length (filter (ifabsent_win k) log) = 1%nat \/ st0 k <> None -> st k <> None).
Proof. exact one_winner_insert_if_absent. Qed.
Check one_insert_if_absent_wins :
  forall k st0 log st,
  lin_rel st0 log st -> Forall (not_delete_of k) log ->
  (length (filter (ifabsent_win k) log) + (match st0 k with Some _ => 1 | None => 0 end) <= 1)%nat /\
  (length (filter (ifabsent_win k) log) = 1%nat \/ st0 k <> None -> st k <> None) .
Print Assumptions one_insert_if_absent_wins.

(* the first permitted deviation is always justified: a write refused as older although the spec
   would have accepted it is preceded, in the commit log, by an accepted delete of the same key
   with an equal or newer timestamp (so that delete was invoked before the rejection) *)
Theorem older_refusal_is_justified :
  forall shards progs sched fuel,
  Forall (Forall explicit_pos) progs ->
  justified_log (w_log (finish fuel (run (init_world shards progs) sched))).
Proof. exact older_refusals_are_justified. Qed.
Check older_refusal_is_justified :
  forall shards progs sched fuel,
  Forall (Forall explicit_pos) progs ->
  justified_log (w_log (finish fuel (run (init_world shards progs) sched))) .
Print Assumptions older_refusal_is_justified.

(* the second permitted deviation is always justified: when a compare-and-swap is answered with the
   flagged "no swap" (the value it would find now equals the expected one), the key has been
   modified since that call read it -- its modification counter, which every accepted insert,
   replace and delete of the key bumps by one, is above the value the call saw at its read *)
Theorem cas_refusal_is_justified :
  forall shards progs sched i,
  let w := run (init_world shards progs) sched in
  forall th k e n tso rest ts ex g v0 s' r cm,
  nth_error (w_th w) i = Some th -> t_ops th = OCas k e n tso :: rest -> t_pc th = PCGuard ts ex g v0 ->
  opstep (w_sh w) (OCas k e n tso) (PCGuard ts ex g v0) = (s', r, Some cm) -> c_dev cm = true ->
  v0 < kver (w_sh w) k.
Proof. exact cas_refusals_are_justified. Qed.
Check cas_refusal_is_justified :
  forall shards progs sched i,
  let w := run (init_world shards progs) sched in
  forall th k e n tso rest ts ex g v0 s' r cm,
  nth_error (w_th w) i = Some th -> t_ops th = OCas k e n tso :: rest -> t_pc th = PCGuard ts ex g v0 ->
  opstep (w_sh w) (OCas k e n tso) (PCGuard ts ex g v0) = (s', r, Some cm) -> c_dev cm = true ->
  v0 < kver (w_sh w) k .
Print Assumptions cas_refusal_is_justified.

(* ... and every unit of that counter is an accepted, logged modification of the key by the thread
   that took the step; all other steps leave every table entry and every counter alone *)
Theorem modification_counter_counts_commits :
  forall s o p s' r c, opstep s o p = (s', r, c) ->
  (tbl s' = tbl s /\ ver s' = ver s) \/
  ((forall k, k <> key_of o -> aget k (tbl s') = aget k (tbl s) /\ kver s' k = kver s k) /\
   kver s' (key_of o) = kver s (key_of o) + 1 /\
   exists cm, c = Some cm /\ c_dev cm = false /\ c_op cm = o).
Proof. exact opstep_tblver. Qed.
Check modification_counter_counts_commits :
  forall s o p s' r c, opstep s o p = (s', r, c) ->
  (tbl s' = tbl s /\ ver s' = ver s) \/
  ((forall k, k <> key_of o -> aget k (tbl s') = aget k (tbl s) /\ kver s' k = kver s k) /\
   kver s' (key_of o) = kver s (key_of o) + 1 /\
   exists cm, c = Some cm /\ c_dev cm = false /\ c_op cm = o) .
Print Assumptions modification_counter_counts_commits.

(* the history checker used on real executions is sound *)
Theorem history_checker_sound :
  forall h, lin_check h = true ->
  exists w, Permutation (map item_hop w) h /\ rt_ok w /\ replay h [] w.
Proof. exact lin_check_sound. Qed.
Check history_checker_sound :
  forall h, lin_check h = true ->
  exists w, Permutation (map item_hop w) h /\ rt_ok w /\ replay h [] w.
Print Assumptions history_checker_sound.

Theorem dropped_calls_are_refusals :
  forall all x, justified all x = true ->
  h_resp x = ROlder \/ (h_resp x = RBool false /\ exists k e n t, h_op x = OCas k e n t).
Proof. exact dropped_is_refusal. Qed.
Check dropped_calls_are_refusals :
  forall all x, justified all x = true ->
  h_resp x = ROlder \/ (h_resp x = RBool false /\ exists k e n t, h_op x = OCas k e n t).
Print Assumptions dropped_calls_are_refusals.
(* non-vacuity: a lost-update race -- two increments read the same counter; the second commit
   re-validates, retries and still adds up *)
Example racing_increments_add_up :
  let w := finish 100 (run (init_world [(0, 3)] [[OIncr 0 1%Z None; OIncr 0 1%Z None]; [OIncr 0 5%Z None]]) [0%nat; 0%nat; 0%nat; 0%nat; 1%nat; 0%nat; 1%nat; 0%nat; 1%nat]) in
  option_map fst (abs (w_sh w) 0) = Some (VC 7%Z) /\ length (w_log w) = 3%nat.
Proof. vm_compute. split; reflexivity. Qed.
Example checker_rejects_a_lost_update :
  lin_check [mkh 1 (OIncr 0 1%Z None) 0 5 (RInt 1%Z); mkh 2 (OIncr 0 1%Z None) 1 4 (RInt 1%Z); mkh 3 (OGet 0) 6 7 (RVal (VC 1%Z))] = false.
Proof. vm_compute. reflexivity. Qed.
Example checker_accepts_the_serial_history :
  lin_check [mkh 1 (OIncr 0 1%Z None) 0 5 (RInt 1%Z); mkh 2 (OIncr 0 1%Z None) 1 4 (RInt 2%Z); mkh 3 (OGet 0) 6 7 (RVal (VC 2%Z))] = true.
Proof. vm_compute. reflexivity. Qed.

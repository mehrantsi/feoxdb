(* C01 -- sequential calls match a last-writer-wins map on every storage tier.
   The reference map is Model.Lww; the implementation is compared with it
   call by call in 16 configurations (memory-only/persistent x cache x TTL x v1/v2/v3), with flush
   and reopen at random positions.  These theorems state, for ALL states, keys, values and
   timestamps, the properties of the reference map that the property text names. *)
From Coq Require Import List NArith Bool.
From Feox Require Import Model.Lww Proofs.LwwProofs.
Import ListNotations.
Local Open Scope N_scope.

(* a write takes effect iff its timestamp is greater than the key's current one *)
Theorem write_takes_effect_iff_newer :
  forall c s e k v t old,
  sorted (kv s) -> find k (kv s) = Some old -> validate_kv c k v = None ->
  let r := step c s (Insert k v (Some t) 0 false) e in
  t <> 0 ->
  (t <= g_ts old -> r = (s, OErr Older)) /\
  (g_ts old < t -> snd r = OBool false -> find k (kv (fst r)) = Some (mkgen v t 0)).
Proof. intros c s e k v t old _. exact (insert_effect_iff c s e k v t old). Qed.
Check write_takes_effect_iff_newer :
  forall c s e k v t old,
  sorted (kv s) -> find k (kv s) = Some old -> validate_kv c k v = None ->
  let r := step c s (Insert k v (Some t) 0 false) e in
  t <> 0 ->
  (t <= g_ts old -> r = (s, OErr Older)) /\
  (g_ts old < t -> snd r = OBool false -> find k (kv (fst r)) = Some (mkgen v t 0)) .
Print Assumptions write_takes_effect_iff_newer.

(* a delete takes effect iff its timestamp is greater than the key's current one *)
Theorem delete_takes_effect_iff_newer :
  forall c s e k t old,
  sorted (kv s) -> find k (kv s) = Some old -> validate_key k = None -> t <> 0 ->
  let r := step c s (Delete k (Some t)) e in
  (t <= g_ts old -> r = (s, OErr Older)) /\
  (g_ts old < t -> snd r = OUnit /\ find k (kv (fst r)) = None).
Proof. exact delete_effect_iff. Qed.
Check delete_takes_effect_iff_newer :
  forall c s e k t old,
  sorted (kv s) -> find k (kv s) = Some old -> validate_key k = None -> t <> 0 ->
  let r := step c s (Delete k (Some t)) e in
  (t <= g_ts old -> r = (s, OErr Older)) /\
  (g_ts old < t -> snd r = OUnit /\ find k (kv (fst r)) = None) .
Print Assumptions delete_takes_effect_iff_newer.

Theorem read_returns_latest :
  forall c s e k g,
  find k (kv s) = Some g -> validate_key k = None -> expired c g (e_tb e) (e_ta e) = No ->
  step c s (Get k) e = (s, OVal (g_val g)).
Proof. exact get_returns_binding. Qed.
Check read_returns_latest :
  forall c s e k g,
  find k (kv s) = Some g -> validate_key k = None -> expired c g (e_tb e) (e_ta e) = No ->
  step c s (Get k) e = (s, OVal (g_val g)) .
Print Assumptions read_returns_latest.

(* a call that returns an error leaves the contents unchanged (one documented exception: an
   increment that met an expired, already invisible generation retires it before failing) *)
Theorem error_leaves_logical_contents :
  forall c s o e,
  is_err (snd (step c s o e)) = true ->
  (kv (fst (step c s o e)) = kv s /\ mem (fst (step c s o e)) = mem s) \/
  (exists k delta ts ttl old, o = Incr k delta ts ttl /\ find k (kv s) = Some old /\
     expired c old (e_tb e) (e_ta e) = Yes /\ kv (fst (step c s o e)) = remove k (kv s)).
Proof. exact error_leaves_contents. Qed.
Check error_leaves_logical_contents :
  forall c s o e,
  is_err (snd (step c s o e)) = true ->
  (kv (fst (step c s o e)) = kv s /\ mem (fst (step c s o e)) = mem s) \/
  (exists k delta ts ttl old, o = Incr k delta ts ttl /\ find k (kv s) = Some old /\
     expired c old (e_tb e) (e_ta e) = Yes /\ kv (fst (step c s o e)) = remove k (kv s)) .
Print Assumptions error_leaves_logical_contents.

(* every reachable state keeps one binding per key, in byte order *)
Theorem bindings_stay_canonical :
  forall c ops s, Inv c s -> Inv c (frun c s ops).
Proof. exact frun_Inv. Qed.
Check bindings_stay_canonical :
  forall c ops s, Inv c s -> Inv c (frun c s ops).
Print Assumptions bindings_stay_canonical.
(* non-vacuity: the empty store satisfies the invariant; a concrete older-timestamp refusal *)
Example init_inv : forall c, Inv c init. Proof. exact Inv_init. Qed.
Example older_refused :
  let c := mkcfg false false 3 None 168 in
  let e := mkenv 0 0 10 11 0 None in
  let s1 := fst (step c init (Insert [1] [7] (Some 200) 0 false) e) in
  snd (step c s1 (Insert [1] [8] (Some 150) 0 false) e) = OErr Older /\
  snd (step c s1 (Get [1]) e) = OVal [7].
Proof. vm_compute. split; reflexivity. Qed.

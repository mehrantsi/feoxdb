(* C16 -- the read cache is transparent and its accounting exact.
   Accounting / removal clauses over Model/Cache.v (public API of ClockCache).  Transparency over
   Model/CacheGen.v: the generation-tagged calls (layer A, compared with the real ClockCache and
   real Records through hook H13) and the store's read / write / TTL paths around them (layer B)
   under an arbitrary schedule of readers, writers, offloads, drops and evictions.  The same
   machine with `on = false` is the store without a cache.  Execution adds the end-to-end tie: the
   C01 sequences in the persistent configurations with the cache on and off must all equal the
   same reference map. *)
From Coq Require Import List NArith Bool.
From Feox Require Import Model.Cache Proofs.CacheProofs Proofs.CacheSpareProofs.
From Feox Require Import Model.Sched Model.CacheGen Proofs.CacheGenProofs.
Import ListNotations.
Local Open Scope N_scope.

(* after every operation of every sequence: reported memory = total size of the held entries,
   bucket list canonical, at most one entry per key *)
Theorem cache_accounting_exact :
  forall ops c, CInv c -> CInv (crun c ops).
Proof. exact crun_CInv. Qed.
Check cache_accounting_exact :
  forall ops c, CInv c -> CInv (crun c ops).
Print Assumptions cache_accounting_exact.

Theorem fresh_cache_consistent :
  forall e, CInv (cache_new e).
Proof. exact cache_new_CInv. Qed.
Check fresh_cache_consistent :
  forall e, CInv (cache_new e) .
Print Assumptions fresh_cache_consistent.

(* eviction brings the usage down to the low watermark: two CLOCK passes always suffice (the
   first clears the reference bit of everything it keeps, the second finds it all unreferenced) *)
Theorem eviction_reaches_the_low_watermark :
  forall c, CInv c -> cmem (cevict c) <= low c.
Proof.
  intros c HI. destruct (cevict_scans c) as (h & ev & E).
  exact (evict_scans_two_passes (proj1 (CInv_BsInv c) HI) E).
Qed.
Check eviction_reaches_the_low_watermark :
  forall c, CInv c -> cmem (cevict c) <= low c .
Print Assumptions eviction_reaches_the_low_watermark.

(* eviction does not take recently referenced entries when unreferenced ones suffice: if evicting
   every unreferenced entry would reach the low watermark, every referenced entry is still there
   after evict_entries (same key, bytes and size; its reference bit may have been cleared) *)
Theorem referenced_entries_spared_when_unreferenced_suffice :
  forall c, CInv c -> cmem c <= low c + utotal (buckets c) ->
  forall i e, In e (bget i (buckets c)) -> ce_ref e = true -> kept e (bget i (buckets (cevict c))).
Proof.
  intros c HI Hs. destruct (cevict_scans c) as (h & ev & E).
  exact (evict_scans_spares (proj1 (CInv_BsInv c) HI) Hs E).
Qed.
Check referenced_entries_spared_when_unreferenced_suffice :
  forall c, CInv c -> cmem c <= low c + utotal (buckets c) ->
  forall i e, In e (bget i (buckets c)) -> ce_ref e = true -> kept e (bget i (buckets (cevict c))) .
Print Assumptions referenced_entries_spared_when_unreferenced_suffice.

(* ... and the hypothesis is needed *)
Theorem without_enough_unreferenced_a_referenced_entry_goes :
  exists c, CInv c /\ low c < cmem c /\ utotal (buckets c) = 0 /\ cmem (cevict c) < cmem c.
Proof. exact without_enough_unreferenced_some_referenced_entry_goes. Qed.
Check without_enough_unreferenced_a_referenced_entry_goes :
  exists c, CInv c /\ low c < cmem c /\ utotal (buckets c) = 0 /\ cmem (cevict c) < cmem c .
Print Assumptions without_enough_unreferenced_a_referenced_entry_goes.

Theorem remove_is_never_followed_by_a_hit :
  forall c k, CInv c -> fst (cget (cremove c k) k) = None.
Proof. exact remove_then_miss. Qed.
Check remove_is_never_followed_by_a_hit :
  forall c k, CInv c -> fst (cget (cremove c k) k) = None .
Print Assumptions remove_is_never_followed_by_a_hit.

(* a lookup for generation g that hits returns the bytes of exactly that generation -- whatever
   updates, deletes, re-creations with lower timestamps, TTL rewrites, offloads, drops, late
   fills and evictions the schedule held *)
Theorem cached_value_is_served_only_for_its_generation :
  forall on es k g v,
    cg_get (b_cache (brun on binit es)) k (Some g) = Some v ->
    exists r, aget g (b_gens (brun on binit es)) = Some r /\ gr_val r = v.
Proof. intros on es k g v. apply binv_hit, brun_inv, binit_inv. Qed.
Check cached_value_is_served_only_for_its_generation :
  forall on es k g v,
    cg_get (b_cache (brun on binit es)) k (Some g) = Some v ->
    exists r, aget g (b_gens (brun on binit es)) = Some r /\ gr_val r = v .
Print Assumptions cached_value_is_served_only_for_its_generation.

(* every value a read returns is the value of a generation of the key it asked for *)
Theorem read_results_are_genuine :
  forall on es i k g v,
    In (i, k, Some (g, v)) (b_out (brun on binit es)) ->
    exists r, aget g (b_gens (brun on binit es)) = Some r /\ gr_key r = k /\ gr_val r = v.
Proof. intros on es. exact (bi_out _ (brun_inv on es binit binit_inv)). Qed.
Check read_results_are_genuine :
  forall on es i k g v,
    In (i, k, Some (g, v)) (b_out (brun on binit es)) ->
    exists r, aget g (b_gens (brun on binit es)) = Some r /\ gr_key r = k /\ gr_val r = v .
Print Assumptions read_results_are_genuine.

(* refinement: whatever the store with the cache answers under a schedule, the store without a
   cache answers under the same schedule of calls and background steps (only answers of the
   device that the cached run never asked for are chosen) -- same results, same table, same
   generations, update_ttl's replacement built from cached bytes included *)
Theorem cached_store_refines_the_cacheless_store :
  forall es, exists es',
    map erase es' = map erase es /\
    b_out (brun false binit es') = b_out (brun true binit es) /\
    b_tbl (brun false binit es') = b_tbl (brun true binit es) /\
    b_gens (brun false binit es') = b_gens (brun true binit es).
Proof.
  intros es. exists (adjust binit es). split; [apply adjust_same_calls|].
  exact (brel_agree _ _ (brun_rel es binit binit binit_inv brel_init)).
Qed.
Check cached_store_refines_the_cacheless_store :
  forall es, exists es',
    map erase es' = map erase es /\
    b_out (brun false binit es') = b_out (brun true binit es) /\
    b_tbl (brun false binit es') = b_tbl (brun true binit es) /\
    b_gens (brun false binit es') = b_gens (brun true binit es) .
Print Assumptions cached_store_refines_the_cacheless_store.

(* and when no device read is refused as stale (every sequential execution), step for step the
   same results with the cache on and off *)
Theorem cache_on_equals_cache_off_without_stale_reads :
  forall es, all_good_reads es ->
    b_out (brun true binit es) = b_out (brun false binit es) /\
    b_tbl (brun true binit es) = b_tbl (brun false binit es) /\
    b_gens (brun true binit es) = b_gens (brun false binit es).
Proof.
  intros es H. destruct (brel_agree _ _ (brun_rel es binit binit binit_inv brel_init)) as (Eo & Et & Eg).
  rewrite (adjust_id es H) in *. repeat split; congruence.
Qed.
Check cache_on_equals_cache_off_without_stale_reads :
  forall es, all_good_reads es ->
    b_out (brun true binit es) = b_out (brun false binit es) /\
    b_tbl (brun true binit es) = b_tbl (brun false binit es) /\
    b_gens (brun true binit es) = b_gens (brun false binit es) .
Print Assumptions cache_on_equals_cache_off_without_stale_reads.

(* at most one entry per key, so a lookup cannot pick among several *)
Theorem one_cache_entry_per_key :
  forall on es, NoDup (ckeys (b_cache (brun on binit es))).
Proof. intros on es. exact (bi_nodup _ (brun_inv on es binit binit_inv)). Qed.
Check one_cache_entry_per_key :
  forall on es, NoDup (ckeys (b_cache (brun on binit es))).
Print Assumptions one_cache_entry_per_key.
Example accounting_unfolds : forall c, CInv c -> cmem c = total (buckets c).
Proof. intros c [_ H _]. exact H. Qed.
Example murmur_vectors :
  murmur3_32 [] 0 = 0 /\ murmur3_32 [97] 0 = 1009084850 /\ murmur3_32 [97; 98; 99; 100; 101] 0 = 3902511862.
Proof. vm_compute. repeat split; reflexivity. Qed.

(* non-vacuity: a schedule in which the cache serves a hit, update_ttl rebuilds the value from the
   cached bytes, and a late fill for a superseded generation lands in the cache (no entry of the
   key was left to refuse it) but is never served to a reader of the current generation *)
Example cache_gen_run :
  let es := [BPut 1 70 5 0; BOffload 1; BStart 9 1; BResolve 9 false; BFill 9 false;
             BStart 8 1; BResolve 8 true; BFill 8 true;
             BStart 7 1; BResolve 7 false;
             BTtl 1 6 0; BFill 7 false;
             BStart 6 1; BResolve 6 false; BFill 6 true] in
  map (fun x => match x with (i, _, Some (g, v)) => (i, g, v) | (i, _, None) => (i, 0, 0) end) (b_out (brun true binit es))
    = [(6, 2, 70); (7, 1, 70); (8, 1, 70); (9, 1, 70)]
  /\ b_cache (brun true binit es) = [mkcent 1 (Some 1) 70]
  /\ cg_get (b_cache (brun true binit es)) 1 (Some 2) = None
  /\ resident (brun true binit es) 2 = true /\ resident (brun false binit es) 2 = false.
Proof. vm_compute. repeat split; reflexivity. Qed.

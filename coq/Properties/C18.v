(* C18 -- calls, flush and close always terminate (PARTIAL).
   Termination of compiled, multi-threaded Rust is not something an executable Gallina model can
   exhibit.  What is proved is the classical sufficient condition for the absence of lock-order
   deadlocks, applied to the nesting relation of the store's locks as it is *regenerated from the
   source on every run* (Gen/LockSites.v, tools/gen_locks.py): the relation respects a rank, hence
   no set of threads that acquire locks along it can be stuck on each other.  Everything else --
   condition variables, channels, bounded retry loops, the sweeper's self-join, the kernel -- is
   exercised by the watchdog runs, not proved. *)
From Coq Require Import List NArith Bool.
From Feox Require Import Gen.LockSites Model.Locks Proofs.LocksProofs.
Import ListNotations.
Local Open Scope N_scope.

(* finite check over the regenerated relation: every "acquired while held" pair goes up in rank
   (retirement flush < retirement pending < metadata < device < free space < shard buffer < ...) *)
Theorem lock_nesting_of_the_source_is_ranked :
  ranked lock_edges = true.
Proof. exact lock_edges_ranked. Qed.
Check lock_nesting_of_the_source_is_ranked :
  ranked lock_edges = true.
Print Assumptions lock_nesting_of_the_source_is_ranked.

Theorem ranked_nesting_excludes_deadlock :
  forall edges l, ranked edges = true -> Forall (follows edges) l -> ~ stuck l.
Proof. exact ranked_edges_exclude_deadlock. Qed.
Check ranked_nesting_excludes_deadlock :
  forall edges l, ranked edges = true -> Forall (follows edges) l -> ~ stuck l.
Print Assumptions ranked_nesting_excludes_deadlock.

Theorem no_lock_order_deadlock_in_the_store :
  forall l, Forall (follows lock_edges) l -> ~ stuck l.
Proof. exact no_deadlock_on_store_locks. Qed.
Check no_lock_order_deadlock_in_the_store :
  forall l, Forall (follows lock_edges) l -> ~ stuck l.
Print Assumptions no_lock_order_deadlock_in_the_store.
(* non-vacuity: two threads taking device and free-space locks in opposite orders are stuck *)
Example opposite_orders_are_stuck :
  stuck [mkthr [4] (Some 5); mkthr [5] (Some 4)].
Proof.
  split; [discriminate|]. intros a [<-|[<-|[]]]; cbn.
  - exists 5. split; [reflexivity|]. exists (mkthr [5] (Some 4)). split; [right; left; reflexivity | left; reflexivity].
  - exists 4. split; [reflexivity|]. exists (mkthr [4] (Some 5)). split; [left; reflexivity | left; reflexivity].
Qed.
(* the ranking theorem would hold of an empty relation, which is what gen_locks.py emits when it
   does not find the source files: the device -> free-space nesting has to be among the edges *)
Example the_relation_is_not_empty : (4, 5) = nth 5 lock_edges (0, 0) \/ In (4, 5) lock_edges.
Proof. right. vm_compute. tauto. Qed.

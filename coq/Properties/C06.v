(* C06 -- the free-space allocator never double-allocates, loses or fragments space.
   Proved from the lemmas of Proofs/FreeSpaceProofs. *)
From Coq Require Import List NArith Lia.
From Feox Require Import Gen.Constants Model.FreeSpace Proofs.FreeSpaceProofs.
Import ListNotations.
Local Open Scope N_scope.

(* Every state reachable from a successful initialize by any call sequence satisfies the
   representation invariant (sorted, non-empty, in-bounds, pairwise non-adjacent runs,
   cached totals exact). *)
Theorem inv_reachable : forall d s0 ops,
  d < U64 -> initialize d = FOk s0 -> Inv (frun s0 ops).
Proof. intros d s0 ops Hd Hi. destruct (initialize_Inv d s0 Hi Hd) as (I & _). exact (proj1 (frun_Inv ops s0 I)). Qed.
Check inv_reachable : forall d s0 ops, d < U64 -> initialize d = FOk s0 -> Inv (frun s0 ops).
Print Assumptions inv_reachable.

(* Initially exactly the data area is free. *)
Theorem initial_free_set : forall d s0, d < U64 -> initialize d = FOk s0 ->
  forall b, free s0 b <-> FEOX_DATA_START_BLOCK <= b < d / FEOX_BLOCK_SIZE.
Proof. intros d s0 Hd Hi. exact (proj2 (proj2 (initialize_Inv d s0 Hi Hd))). Qed.
Check initial_free_set : forall d s0, d < U64 -> initialize d = FOk s0 ->
  forall b, free s0 b <-> FEOX_DATA_START_BLOCK <= b < d / FEOX_BLOCK_SIZE.
Print Assumptions initial_free_set.

(* An allocation returns an in-bounds run of exactly the requested length that was entirely
   free, and removes exactly that run from the free set; it fails with OutOfSpace exactly when
   no single run is long enough, with InvalidArgument exactly for n = 0; failures change nothing. *)
Theorem alloc_sound_complete : forall n s, Inv s ->
  (n = 0 /\ alloc n s = (FErr EArg, s)) \/
  (0 < n /\ (forall r, In r (runs s) -> snd r < n) /\ alloc n s = (FErr ESpace, s)) \/
  (0 < n /\ exists a s', alloc n s = (FOk a, s') /\
     FEOX_DATA_START_BLOCK <= a /\ a + n <= dev_sectors s /\
     (forall b, a <= b < a + n -> free s b) /\
     Inv s' /\ dev_bytes s' = dev_bytes s /\
     (forall b, free s' b <-> free s b /\ ~ (a <= b < a + n))).
Proof. exact alloc_cases. Qed.
Check alloc_sound_complete : forall n s, Inv s ->
  (n = 0 /\ alloc n s = (FErr EArg, s)) \/
  (0 < n /\ (forall r, In r (runs s) -> snd r < n) /\ alloc n s = (FErr ESpace, s)) \/
  (0 < n /\ exists a s', alloc n s = (FOk a, s') /\
     FEOX_DATA_START_BLOCK <= a /\ a + n <= dev_sectors s /\
     (forall b, a <= b < a + n -> free s b) /\
     Inv s' /\ dev_bytes s' = dev_bytes s /\
     (forall b, free s' b <-> free s b /\ ~ (a <= b < a + n))).
Print Assumptions alloc_sound_complete.

(* A release is accepted iff the range is inside the data area, non-empty and disjoint from
   the free set; a rejected release leaves the whole state unchanged; an accepted one adds
   exactly the range. *)
Theorem release_sound_complete : forall st c s, Inv s ->
  (exists e, release st c s = (FErr e, s) /\
     ~ (FEOX_DATA_START_BLOCK <= st /\ 0 < c /\ st + c <= dev_sectors s /\
        (forall b, st <= b < st + c -> ~ free s b))) \/
  (exists s', release st c s = (FOk tt, s') /\
     (FEOX_DATA_START_BLOCK <= st /\ 0 < c /\ st + c <= dev_sectors s /\
        (forall b, st <= b < st + c -> ~ free s b)) /\
     Inv s' /\ dev_bytes s' = dev_bytes s /\
     (forall b, free s' b <-> free s b \/ st <= b < st + c)).
Proof. exact release_cases. Qed.
Check release_sound_complete : forall st c s, Inv s ->
  (exists e, release st c s = (FErr e, s) /\
     ~ (FEOX_DATA_START_BLOCK <= st /\ 0 < c /\ st + c <= dev_sectors s /\
        (forall b, st <= b < st + c -> ~ free s b))) \/
  (exists s', release st c s = (FOk tt, s') /\
     (FEOX_DATA_START_BLOCK <= st /\ 0 < c /\ st + c <= dev_sectors s /\
        (forall b, st <= b < st + c -> ~ free s b)) /\
     Inv s' /\ dev_bytes s' = dev_bytes s /\
     (forall b, free s' b <-> free s b \/ st <= b < st + c)).
Print Assumptions release_sound_complete.

(* No double allocation: a block handed out stays out of every later allocation until a
   release names it -- along every call sequence. *)
Theorem no_double_allocation : forall s n1 a1 s1 mid n2 a2 s2 b,
  Inv s -> alloc n1 s = (FOk a1, s1) -> a1 <= b < a1 + n1 ->
  (forall st c, In (ORelease st c) mid -> ~ (st <= b < st + c)) ->
  alloc n2 (frun s1 mid) = (FOk a2, s2) -> ~ (a2 <= b < a2 + n2).
Proof.
  intros s n1 a1 s1 mid n2 a2 s2 b HI E1 Hb NR E2 Hb2.
  destruct (alloc_ok_inv _ _ _ _ HI E1) as (_ & _ & _ & _ & I1 & _ & F1).
  assert (NF : ~ free s1 b) by (rewrite F1; tauto).
  destruct (alloc_ok_inv _ _ _ _ (proj1 (frun_Inv mid s1 I1)) E2) as (_ & _ & _ & FR & _).
  exact (frun_keeps_used mid s1 b I1 NF NR (FR b Hb2)).
Qed.
Check no_double_allocation : forall s n1 a1 s1 mid n2 a2 s2 b,
  Inv s -> alloc n1 s = (FOk a1, s1) -> a1 <= b < a1 + n1 ->
  (forall st c, In (ORelease st c) mid -> ~ (st <= b < st + c)) ->
  alloc n2 (frun s1 mid) = (FOk a2, s2) -> ~ (a2 <= b < a2 + n2).
Print Assumptions no_double_allocation.

(* Canonical form: the run list is the unique non-adjacent decomposition of the free set, every
   run is a maximal interval of it, and the reported statistics are those of that decomposition:
   total = 4096 * |free set| (counted block by block), largest = the longest maximal run,
   chunks = the number of maximal runs. *)
Theorem canonical : forall s, Inv s ->
  (forall s2, Inv s2 -> dev_bytes s2 = dev_bytes s -> (forall b, free s b <-> free s2 b) -> runs s2 = runs s) /\
  (forall r, In r (runs s) ->
     (forall b, fst r <= b < fst r + snd r -> free s b) /\ ~ free s (fst r + snd r) /\
     (forall b, b + 1 = fst r -> ~ free s b)) /\
  get_total_free s =
    count_free (runs s) FEOX_DATA_START_BLOCK (N.to_nat (dev_sectors s - FEOX_DATA_START_BLOCK)) * FEOX_BLOCK_SIZE /\
  get_largest s = max_size (runs s) * FEOX_BLOCK_SIZE /\
  get_chunks s = N.of_nat (length (runs s)) /\
  (forall r, In r (runs s) -> snd r <= max_size (runs s)) /\
  (runs s <> [] -> exists r, In r (runs s) /\ snd r = max_size (runs s)).
Proof.
  intros s HI. pose proof HI as [D U W T F]. repeat apply conj.
  - intros s2 I2 Hd EQ. rewrite (Inv_canonical s s2 HI I2 Hd EQ). reflexivity.
  - intros r. exact (wf_maximal _ _ _ r W).
  - unfold get_total_free. rewrite T. f_equal. apply (sum_is_cardinal (dev_sectors s)); auto. lia.
  - reflexivity.
  - reflexivity.
  - exact (max_size_ge (runs s)).
  - exact (max_size_In (runs s)).
Qed.
Check canonical : forall s, Inv s ->
  (forall s2, Inv s2 -> dev_bytes s2 = dev_bytes s -> (forall b, free s b <-> free s2 b) -> runs s2 = runs s) /\
  (forall r, In r (runs s) ->
     (forall b, fst r <= b < fst r + snd r -> free s b) /\ ~ free s (fst r + snd r) /\
     (forall b, b + 1 = fst r -> ~ free s b)) /\
  get_total_free s =
    count_free (runs s) FEOX_DATA_START_BLOCK (N.to_nat (dev_sectors s - FEOX_DATA_START_BLOCK)) * FEOX_BLOCK_SIZE /\
  get_largest s = max_size (runs s) * FEOX_BLOCK_SIZE /\
  get_chunks s = N.of_nat (length (runs s)) /\
  (forall r, In r (runs s) -> snd r <= max_size (runs s)) /\
  (runs s <> [] -> exists r, In r (runs s) /\ snd r = max_size (runs s)).
Print Assumptions canonical.

(* Non-vacuity: a concrete reachable state with two separated runs satisfies Inv. *)
Example inv_nonvacuous :
  match initialize 131072 with
  | FOk s0 => runs (frun s0 [OAlloc 1; OAlloc 2; OAlloc 3; ORelease 17 2]) = [(17, 2); (22, 10)]
  | FErr _ => False
  end.
Proof. vm_compute. reflexivity. Qed.

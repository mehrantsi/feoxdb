(* C17 -- opening arbitrary or damaged files fails cleanly: no panic, no hang, no takeover.
   Statements about Model.Recovery.open_image (byte-level model of open + recovery). *)
From Coq Require Import List NArith Bool.
From Feox Require Import Gen.Constants Model.Bytes Model.Codec Model.MetaJournal Model.Recovery
                         Proofs.RecoveryProofs Proofs.OpenContainedProofs.
Import ListNotations.
Local Open Scope N_scope.

(* For EVERY image (any list of byte blocks of any content and length), every configuration
   (read-only or not, TTL on or off, ambiguous markers allowed or not, any clock value):
   the open terminates (the function is total; its fuel is never exhausted and every scan step
   strictly advances -- both would be the `Panic` outcome) and no out-of-range slice is taken. *)
Theorem open_never_panics : forall c img, fst (open_image c img) <> Panic.
Proof. intros c img E. pose proof (proj1 (open_image_outcome c img)) as H. rewrite E in H. exact H. Qed.
Check open_never_panics : forall c img, fst (open_image c img) <> Panic.
Print Assumptions open_never_panics.

(* Every single scan iteration on a non-empty remainder either rejects the image or moves the
   scan position strictly forward (no endless loop), whatever the block contains. *)
Theorem scan_progress : forall c version total sector rest st jl, rest <> [] ->
  match scan_step c version total sector rest st jl with
  | Ok (Advance next _ _) => sector < next
  | Rej _ => True
  | Panic => False
  end.
Proof.
  intros c version total sector rest st jl Hrest.
  pose proof (scan_step_outcome c version total sector rest st jl) as G.
  destruct (scan_step c version total sector rest st jl) as [[next st' jl']| |];
    [exact (proj1 G)|exact I|exact (Hrest G)].
Qed.
Check scan_progress : forall c version total sector rest st jl, rest <> [] ->
  match scan_step c version total sector rest st jl with
  | Ok (Advance next _ _) => sector < next
  | Rej _ => True
  | Panic => False
  end.
Print Assumptions scan_progress.

(* An open that fails for size or metadata reasons leaves the image byte-identical. *)
Theorem rejected_for_size_or_metadata_untouched : forall c img e,
  fst (open_image c img) = Rej e -> (e = EInvalidMetadata \/ e = EInvalidDevice) ->
  snd (open_image c img) = img.
Proof.
  intros c img e E He. pose proof (proj1 (open_image_outcome c img)) as H. rewrite E in H.
  destruct H as [H|H]; [|exact H]. destruct He as [-> | ->]; contradiction.
Qed.
Check rejected_for_size_or_metadata_untouched : forall c img e,
  fst (open_image c img) = Rej e -> (e = EInvalidMetadata \/ e = EInvalidDevice) ->
  snd (open_image c img) = img.
Print Assumptions rejected_for_size_or_metadata_untouched.

(* A file that is not recognisably a FeOx device (the selected metadata copy lacks the signature
   or does not validate) is rejected as InvalidMetadata, unmodified. *)
Theorem not_feox_rejected_untouched : forall c img,
  (17 <= length img)%nat ->
  (let mb := if select_meta (nth_block img 0) (nth_block img (N.to_nat FEOX_METADATA_BACKUP_BLOCK))
             then nth_block img (N.to_nat FEOX_METADATA_BACKUP_BLOCK) else nth_block img 0 in
   list_eqb (firstn 8 mb) SIGNATURE = false \/ decode_meta mb = None) ->
  open_image c img = (Rej EInvalidMetadata, img).
Proof. exact open_image_unrecognised. Qed.
Check not_feox_rejected_untouched : forall c img,
  (17 <= length img)%nat ->
  (let mb := if select_meta (nth_block img 0) (nth_block img (N.to_nat FEOX_METADATA_BACKUP_BLOCK))
             then nth_block img (N.to_nat FEOX_METADATA_BACKUP_BLOCK) else nth_block img 0 in
   list_eqb (firstn 8 mb) SIGNATURE = false \/ decode_meta mb = None) ->
  open_image c img = (Rej EInvalidMetadata, img).
Print Assumptions not_feox_rejected_untouched.

(* parse_record never takes an out-of-range slice, whatever key length the header declares *)
Theorem parse_never_out_of_range : forall version data, parse_head version data <> None.
Proof. exact parse_head_total. Qed.
Check parse_never_out_of_range : forall version data, parse_head version data <> None.
Print Assumptions parse_never_out_of_range.

(* Whatever the file holds and however the open ends (every image, every configuration, every
   outcome): the length of the file stays, and the primary metadata block, the backup metadata block
   and every other block in front of the data area outside the two journal slots keep every byte.
   Journal replay, scan and both retirements of recovery write only into the journal slots and into
   the data area: a damaged file can make the open fail, it cannot make it overwrite the metadata. *)
Theorem open_never_touches_the_metadata_or_reserved_blocks : forall c img,
  length (snd (open_image c img)) = length img /\
  forall k, (k <= N.to_nat FEOX_METADATA_BLOCK \/
             (N.to_nat FEOX_METADATA_BACKUP_BLOCK <= k /\ k < N.to_nat FEOX_DATA_START_BLOCK))%nat ->
            nth k (snd (open_image c img)) [] = nth k img [].
Proof. exact open_never_touches_the_reserved_blocks. Qed.
Check open_never_touches_the_metadata_or_reserved_blocks : forall c img,
  length (snd (open_image c img)) = length img /\
  forall k, (k <= N.to_nat FEOX_METADATA_BLOCK \/
             (N.to_nat FEOX_METADATA_BACKUP_BLOCK <= k /\ k < N.to_nat FEOX_DATA_START_BLOCK))%nat ->
            nth k (snd (open_image c img)) [] = nth k img [].
Print Assumptions open_never_touches_the_metadata_or_reserved_blocks.

(* Non-vacuity: a 17-block all-0xFF image is rejected (not a FeOx device). *)
Example reject_example :
  fst (open_image (mkcfg false false None 168) (repeat (repeat 255 64) 17)) = Rej EInvalidMetadata.
Proof. vm_compute. reflexivity. Qed.

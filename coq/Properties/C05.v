(* C05 -- each data block has exactly one owner or is free; freed space is reusable.
   Over the allocator model of C06 (Model/FreeSpace.v): an ownership ledger of the extents the
   write path holds (reserved, dirty, published, being retired) on top of the free-space manager. *)
From Coq Require Import List NArith.
From Feox Require Import Gen.Constants Model.FreeSpace Proofs.FreeSpaceProofs Proofs.OwnershipProofs.
From Feox Require Model.FailPath Proofs.FailPathProofs.
From Feox Require Model.FailBatches Proofs.FailBatchesProofs.
From Feox Require Model.Codec Model.Recovery Proofs.ScanAcceptsProofs Proofs.ScanQuiescentProofs.
From Feox Require Model.MetaJournal Proofs.RetireContainedProofs.
Import ListNotations.
Local Open Scope N_scope.

(* exact partition, for every sequence of acquisitions and give-backs: every block of the data area
   is free xor inside exactly one owned extent; owned extents are in bounds and pairwise disjoint *)
Theorem partition_invariant :
  forall ops o, OInv o -> OInv (orun o ops).
Proof. exact orun_OInv. Qed.
Check partition_invariant :
  forall ops o, OInv o -> OInv (orun o ops) .
Print Assumptions partition_invariant.

(* a fresh device starts partitioned (everything free, nothing owned) *)
Theorem fresh_device_partitioned :
  forall d s0, d < U64 -> initialize d = FOk s0 -> OInv (mkown s0 []).
Proof. exact fresh_OInv. Qed.
Check fresh_device_partitioned :
  forall d s0, d < U64 -> initialize d = FOk s0 -> OInv (mkown s0 []) .
Print Assumptions fresh_device_partitioned.

(* nothing leaks: an owned extent is always accepted back by the manager *)
Theorem no_leak :
  forall o e, OInv o -> In e (owned o) ->
  exists f', release (fst e) (snd e) (ofs o) = (FOk tt, f').
Proof. exact give_back_accepted. Qed.
Check no_leak :
  forall o e, OInv o -> In e (owned o) ->
  exists f', release (fst e) (snd e) (ofs o) = (FOk tt, f') .
Print Assumptions no_leak.

(* a device emptied by deletes is exactly the fresh one: one free run covering the whole data area *)
Theorem emptied_device_is_fresh :
  forall o, OInv o -> owned o = [] ->
  runs (ofs o) = [(FEOX_DATA_START_BLOCK, dev_sectors (ofs o) - FEOX_DATA_START_BLOCK)].
Proof. exact emptied_is_fresh. Qed.
Check emptied_device_is_fresh :
  forall o, OInv o -> owned o = [] ->
  runs (ofs o) = [(FEOX_DATA_START_BLOCK, dev_sectors (ofs o) - FEOX_DATA_START_BLOCK)] .
Print Assumptions emptied_device_is_fresh.

(* the link from the write path to the ledger, through device failures (Model/FailPath.v): on a
   fresh device, after any sequence of inserts and flushes and whatever device calls fail, every
   block of the data area is free exactly when no queued entry's reservation (clean, dirty or
   quarantined) and no published record covers it, no block is covered twice, and the disk-usage
   counter is the number of covered blocks *)
Theorem ownership_partition_through_failures :
  forall fault d f cs,
  d < U64 -> initialize d = FOk f ->
  let st := FailPathProofs.fcalls fault (FailPath.finit f) cs in
  let owned := FailPath.exts_of (FailPath.f_queue st) ++ map snd (FailPath.f_durable st) in
  Inv (FailPath.f_fs st) /\
  (forall b, (FailPathProofs.cnt b owned <= 1)%nat) /\
  (forall b, DS <= b < dev_sectors (FailPath.f_fs st) -> (free (FailPath.f_fs st) b <-> FailPathProofs.cnt b owned = O)) /\
  FailPath.f_usage st = FailPathProofs.sum_blocks owned.
Proof. exact FailPathProofs.ownership_partition_through_failures. Qed.
Check ownership_partition_through_failures :
  forall fault d f cs,
  d < U64 -> initialize d = FOk f ->
  let st := FailPathProofs.fcalls fault (FailPath.finit f) cs in
  let owned := FailPath.exts_of (FailPath.f_queue st) ++ map snd (FailPath.f_durable st) in
  Inv (FailPath.f_fs st) /\
  (forall b, (FailPathProofs.cnt b owned <= 1)%nat) /\
  (forall b, DS <= b < dev_sectors (FailPath.f_fs st) -> (free (FailPath.f_fs st) b <-> FailPathProofs.cnt b owned = O)) /\
  FailPath.f_usage st = FailPathProofs.sum_blocks owned .
Print Assumptions ownership_partition_through_failures.

(* ... and with deletes of published records: their extents stay owned (waiting in the retirement
   queue) until the retirement gives them back; reclaim-and-retry on a full device included *)
Theorem ownership_partition_with_deletes :
  forall fault d f cs,
  d < U64 -> initialize d = FOk f ->
  let rs := FailPathProofs.rcalls fault (FailPath.rinit f) cs in
  let st := FailPath.r_core rs in
  let owned := FailPath.exts_of (FailPath.f_queue st) ++ map snd (FailPath.f_durable st) ++ map snd (FailPath.r_pending rs) in
  Inv (FailPath.f_fs st) /\
  (forall b, (FailPathProofs.cnt b owned <= 1)%nat) /\
  (forall b, DS <= b < dev_sectors (FailPath.f_fs st) -> (free (FailPath.f_fs st) b <-> FailPathProofs.cnt b owned = O)) /\
  FailPath.f_usage st = FailPathProofs.sum_blocks owned.
Proof. exact FailPathProofs.ownership_partition_with_deletes. Qed.
Check ownership_partition_with_deletes :
  forall fault d f cs,
  d < U64 -> initialize d = FOk f ->
  let rs := FailPathProofs.rcalls fault (FailPath.rinit f) cs in
  let st := FailPath.r_core rs in
  let owned := FailPath.exts_of (FailPath.f_queue st) ++ map snd (FailPath.f_durable st) ++ map snd (FailPath.r_pending rs) in
  Inv (FailPath.f_fs st) /\
  (forall b, (FailPathProofs.cnt b owned <= 1)%nat) /\
  (forall b, DS <= b < dev_sectors (FailPath.f_fs st) -> (free (FailPath.f_fs st) b <-> FailPathProofs.cnt b owned = O)) /\
  FailPath.f_usage st = FailPathProofs.sum_blocks owned .
Print Assumptions ownership_partition_with_deletes.

(* ... and when a pass spans several journal transactions (Model/FailBatches.v), any queue length *)
Theorem ownership_partition_through_failures_over_batches :
  forall fault d f cs,
  d < U64 -> initialize d = FOk f ->
  let st := FailBatchesProofs.pcalls fault (FailPath.finit f) cs in
  let owned := FailPath.exts_of (FailPath.f_queue st) ++ map snd (FailPath.f_durable st) in
  Inv (FailPath.f_fs st) /\
  (forall b, (FailPathProofs.cnt b owned <= 1)%nat) /\
  (forall b, DS <= b < dev_sectors (FailPath.f_fs st) -> (free (FailPath.f_fs st) b <-> FailPathProofs.cnt b owned = O)) /\
  FailPath.f_usage st = FailPathProofs.sum_blocks owned.
Proof.
  intros fault d f cs Hd Hi.
  pose proof (FailPathProofs.FInv_partition _ _ (FailBatchesProofs.BatchInv_FInv _ _ (FailBatchesProofs.pcalls_reach fault d f cs Hd Hi))) as P.
  rewrite app_nil_r in P. exact P.
Qed.
Check ownership_partition_through_failures_over_batches :
  forall fault d f cs,
  d < U64 -> initialize d = FOk f ->
  let st := FailBatchesProofs.pcalls fault (FailPath.finit f) cs in
  let owned := FailPath.exts_of (FailPath.f_queue st) ++ map snd (FailPath.f_durable st) in
  Inv (FailPath.f_fs st) /\
  (forall b, (FailPathProofs.cnt b owned <= 1)%nat) /\
  (forall b, DS <= b < dev_sectors (FailPath.f_fs st) -> (free (FailPath.f_fs st) b <-> FailPathProofs.cnt b owned = O)) /\
  FailPath.f_usage st = FailPathProofs.sum_blocks owned .
Print Assumptions ownership_partition_through_failures_over_batches.

(* the partition as the recovery scan rebuilds it from a quiescent data area (records with distinct
   keys, completed marker runs, free blocks, in any order): after the scan and the release of the
   tail every block of the data area is free exactly when no live record's extent covers it *)
Theorem recovery_rebuilds_the_partition :
  forall c version total jl img,
  (Recovery.c_ro c = false \/ jl = []) -> Codec.has_token version = true -> total <= Recovery.U64MAX ->
  forall its st0 fuel,
  (length its < fuel)%nat ->
  Recovery.rs_fs st0 = mkfs [] (total * FEOX_BLOCK_SIZE) 0 0 -> Recovery.rs_last_end st0 = FEOX_DATA_START_BLOCK -> Recovery.rs_idx st0 = [] ->
  total * FEOX_BLOCK_SIZE < U64 ->
  Forall (ScanQuiescentProofs.item_ok version) its -> ScanAcceptsProofs.distinct_keys (ScanQuiescentProofs.recs_of its) ->
  skipn (N.to_nat FEOX_DATA_START_BLOCK) img = ScanQuiescentProofs.ilayout version FEOX_DATA_START_BLOCK its ->
  total = FEOX_DATA_START_BLOCK + ScanQuiescentProofs.isum version its -> 0 < ScanQuiescentProofs.isum version its ->
  exists st' st'',
    Recovery.scan fuel c version total img FEOX_DATA_START_BLOCK st0 jl = Recovery.Ok st' /\
    (if Recovery.rs_last_end st' <? total then Recovery.fs_release st' (Recovery.rs_last_end st') (total - Recovery.rs_last_end st') else Recovery.Ok st') = Recovery.Ok st'' /\
    (forall r, In r (ScanQuiescentProofs.recs_of its) -> exists s, Recovery.idx_find (Codec.r_key r) (Recovery.rs_idx st'') = Some (ScanQuiescentProofs.entry_of version r s)) /\
    Recovery.rs_count st'' = Recovery.rs_count st0 + N.of_nat (length (ScanQuiescentProofs.recs_of its)) /\
    Recovery.rs_retired st' = Recovery.rs_retired st0 /\ Recovery.rs_retired st'' = Recovery.rs_retired st0 /\
    (forall b, FEOX_DATA_START_BLOCK <= b < total ->
               (free (Recovery.rs_fs st'') b <-> ~ ScanQuiescentProofs.covered version FEOX_DATA_START_BLOCK its b)).
Proof. exact ScanQuiescentProofs.quiescent_data_area_is_partitioned. Qed.
Check recovery_rebuilds_the_partition :
  forall c version total jl img,
  (Recovery.c_ro c = false \/ jl = []) -> Codec.has_token version = true -> total <= Recovery.U64MAX ->
  forall its st0 fuel,
  (length its < fuel)%nat ->
  Recovery.rs_fs st0 = mkfs [] (total * FEOX_BLOCK_SIZE) 0 0 -> Recovery.rs_last_end st0 = FEOX_DATA_START_BLOCK -> Recovery.rs_idx st0 = [] ->
  total * FEOX_BLOCK_SIZE < U64 ->
  Forall (ScanQuiescentProofs.item_ok version) its -> ScanAcceptsProofs.distinct_keys (ScanQuiescentProofs.recs_of its) ->
  skipn (N.to_nat FEOX_DATA_START_BLOCK) img = ScanQuiescentProofs.ilayout version FEOX_DATA_START_BLOCK its ->
  total = FEOX_DATA_START_BLOCK + ScanQuiescentProofs.isum version its -> 0 < ScanQuiescentProofs.isum version its ->
  exists st' st'',
    Recovery.scan fuel c version total img FEOX_DATA_START_BLOCK st0 jl = Recovery.Ok st' /\
    (if Recovery.rs_last_end st' <? total then Recovery.fs_release st' (Recovery.rs_last_end st') (total - Recovery.rs_last_end st') else Recovery.Ok st') = Recovery.Ok st'' /\
    (forall r, In r (ScanQuiescentProofs.recs_of its) -> exists s, Recovery.idx_find (Codec.r_key r) (Recovery.rs_idx st'') = Some (ScanQuiescentProofs.entry_of version r s)) /\
    Recovery.rs_count st'' = Recovery.rs_count st0 + N.of_nat (length (ScanQuiescentProofs.recs_of its)) /\
    Recovery.rs_retired st' = Recovery.rs_retired st0 /\ Recovery.rs_retired st'' = Recovery.rs_retired st0 /\
    (forall b, FEOX_DATA_START_BLOCK <= b < total ->
               (free (Recovery.rs_fs st'') b <-> ~ ScanQuiescentProofs.covered version FEOX_DATA_START_BLOCK its b)).
Print Assumptions recovery_rebuilds_the_partition.
Example partition_unfolds : forall o, OInv o ->
  forall b, FEOX_DATA_START_BLOCK <= b < dev_sectors (ofs o) -> (free (ofs o) b <-> ~ owned_blk o b).
Proof. intros o [_ H _ _]. exact H. Qed.

(* ---- what a retirement can write (Model/Recovery.v retire_extents: the run-time retirement of a
   flush and the retirements of recovery; replay: the journal replay of an open).  Whatever the
   extents, the journal position and the chunking into journal transactions: the length of the file
   stays and a block that lies neither in the journal area nor inside one of the NAMED extents keeps
   every byte -- a retirement never writes into blocks it does not own ---- *)

Theorem retirement_writes_only_the_journal_and_the_named_extents :
  forall img p exts,
  (N.to_nat FEOX_METADATA_BACKUP_BLOCK <= length img)%nat ->
  RetireContainedProofs.same_outside exts img (fst (fst (Recovery.retire_extents img p exts))).
Proof. intros img p exts _. apply RetireContainedProofs.retirement_is_contained. Qed.
Check retirement_writes_only_the_journal_and_the_named_extents :
  forall img p exts,
  (N.to_nat FEOX_METADATA_BACKUP_BLOCK <= length img)%nat ->
  RetireContainedProofs.same_outside exts img (fst (fst (Recovery.retire_extents img p exts))).
Print Assumptions retirement_writes_only_the_journal_and_the_named_extents.

Theorem replay_writes_only_the_journal_and_the_named_extents :
  forall img p exts,
  (N.to_nat FEOX_METADATA_BACKUP_BLOCK <= length img)%nat ->
  match Recovery.replay img p exts with
  | Recovery.ReplayOk img' _ | Recovery.ReplayExhausted img' => RetireContainedProofs.same_outside exts img img'
  | Recovery.ReplayCoalesce => True
  end.
Proof. intros img p exts _. apply RetireContainedProofs.replay_is_contained. Qed.
Check replay_writes_only_the_journal_and_the_named_extents :
  forall img p exts,
  (N.to_nat FEOX_METADATA_BACKUP_BLOCK <= length img)%nat ->
  match Recovery.replay img p exts with
  | Recovery.ReplayOk img' _ | Recovery.ReplayExhausted img' => RetireContainedProofs.same_outside exts img img'
  | Recovery.ReplayCoalesce => True
  end .
Print Assumptions replay_writes_only_the_journal_and_the_named_extents.

(* hence every extent that is not named -- every other record -- survives byte for byte ... *)
Theorem retirement_keeps_every_other_extent :
  forall img p exts a n,
  (N.to_nat FEOX_METADATA_BACKUP_BLOCK <= length img)%nat ->
  FEOX_METADATA_BACKUP_BLOCK <= a ->
  (forall b, a <= b < a + n -> ~ RetireContainedProofs.in_exts exts b) ->
  let img' := fst (fst (Recovery.retire_extents img p exts)) in
  length img' = length img /\
  firstn (N.to_nat n) (skipn (N.to_nat a) img') = firstn (N.to_nat n) (skipn (N.to_nat a) img).
Proof. exact RetireContainedProofs.retirement_keeps_every_other_extent. Qed.
Check retirement_keeps_every_other_extent :
  forall img p exts a n,
  (N.to_nat FEOX_METADATA_BACKUP_BLOCK <= length img)%nat ->
  FEOX_METADATA_BACKUP_BLOCK <= a ->
  (forall b, a <= b < a + n -> ~ RetireContainedProofs.in_exts exts b) ->
  let img' := fst (fst (Recovery.retire_extents img p exts)) in
  length img' = length img /\
  firstn (N.to_nat n) (skipn (N.to_nat a) img') = firstn (N.to_nat n) (skipn (N.to_nat a) img) .
Print Assumptions retirement_keeps_every_other_extent.

(* ... and so do both metadata copies, for extents in the data area (what the journal codec accepts
   and the scan produces) *)
Theorem retirement_keeps_the_metadata :
  forall img p exts,
  (N.to_nat FEOX_METADATA_BACKUP_BLOCK <= length img)%nat ->
  Forall (fun e => FEOX_DATA_START_BLOCK <= fst e) exts ->
  let img' := fst (fst (Recovery.retire_extents img p exts)) in
  nth (N.to_nat FEOX_METADATA_BLOCK) img' [] = nth (N.to_nat FEOX_METADATA_BLOCK) img [] /\
  nth (N.to_nat FEOX_METADATA_BACKUP_BLOCK) img' [] = nth (N.to_nat FEOX_METADATA_BACKUP_BLOCK) img [].
Proof. exact RetireContainedProofs.retirement_keeps_the_metadata. Qed.
Check retirement_keeps_the_metadata :
  forall img p exts,
  (N.to_nat FEOX_METADATA_BACKUP_BLOCK <= length img)%nat ->
  Forall (fun e => FEOX_DATA_START_BLOCK <= fst e) exts ->
  let img' := fst (fst (Recovery.retire_extents img p exts)) in
  nth (N.to_nat FEOX_METADATA_BLOCK) img' [] = nth (N.to_nat FEOX_METADATA_BLOCK) img [] /\
  nth (N.to_nat FEOX_METADATA_BACKUP_BLOCK) img' [] = nth (N.to_nat FEOX_METADATA_BACKUP_BLOCK) img [].
Print Assumptions retirement_keeps_the_metadata.
(* non-vacuity: the definition unfolds to the claim, and a concrete retirement (block 17 of a
   20-block file) succeeds, leaves a marker in block 17 and journal records in both slots, and
   changes nothing else *)
Example same_outside_unfolds : forall exts img img', RetireContainedProofs.same_outside exts img img' ->
  length img' = length img /\
  forall k, (k <= N.to_nat FEOX_METADATA_BLOCK \/ N.to_nat FEOX_METADATA_BACKUP_BLOCK <= k)%nat ->
            ~ (exists s n, In (s, n) exts /\ s <= N.of_nat k < s + n) -> nth k img' [] = nth k img [].
Proof. intros exts img img' H. exact H. Qed.

Example a_retirement :
  let img := repeat (repeat 7 (N.to_nat FEOX_BLOCK_SIZE)) 20 in
  match Recovery.retire_extents img (Recovery.mkjpos 4 1) [(17, 1)] with
  | (img', p', ok) =>
      ok = true /\ Recovery.j_gen p' = 6 /\
      map (fun k => Bytes.list_eqb (nth k img' []) (nth k img [])) (seq 0 20)
        = [true; false; true; true; false; true; true; true; true; true; true; true; true; true; true; true; true; false; true; true]
  end.
Proof. vm_compute. repeat split; reflexivity. Qed.

(* C03 -- any crash leaves a file that reopens to authentic, untorn, recent contents.
   Statement over the abstract device / journal protocol of Model/Device.v: cells are extents,
   a torn write leaves junk, a crash keeps ANY sub-multiset of the un-synced writes in order,
   each possibly torn.  The block-level scan (alignment, tokens, marker spans, len = keys) is
   Model/Recovery.v, tied to the real code on crash images by execution (engine `crash`); the
   second half of this file states what that scan does with several generations of a key, and
   what the open does with a batch that was in flight. *)
From Coq Require Import List NArith Bool Lia.
From Feox Require Import Model.Device Proofs.CrashProofs.
From Feox Require Gen.Constants Model.Bytes Model.Codec Model.FreeSpace Model.Recovery Proofs.ScanAcceptsProofs Proofs.ScanQuiescentProofs Proofs.ScanGenerationsProofs.
From Feox Require Model.MetaJournal Proofs.FreeSpaceProofs Proofs.MetaJournalProofs Proofs.ReplayRollbackProofs.
Import ListNotations.
Local Open Scope N_scope.

(* the protocol invariant is kept by every step; a quiescent state satisfies it
   (C02.quiescent_is_invariant) *)
Theorem invariant_reachable :
  forall s s', PInv s -> reach s s' -> PInv s'.
Proof. exact reach_PInv. Qed.
Check invariant_reachable :
  forall s s', PInv s -> reach s s' -> PInv s' .
Print Assumptions invariant_reachable.

(* At every point of every history (every protocol state), for every crash image: the device
   reopens, no torn cell is seen by the scan, and the logical contents are those before or those
   after the transaction in flight -- never a mixture. *)
Theorem crash_reopens_atomically :
  forall s d,
  PInv s -> crash_image (dv s) d ->
  exists seen, recover d = Some seen /\
    ((forall k, contents seen k = before s k) \/ (forall k, contents seen k = after s k)).
Proof. exact crash_atomic. Qed.
Check crash_reopens_atomically :
  forall s d,
  PInv s -> crash_image (dv s) d ->
  exists seen, recover d = Some seen /\
    ((forall k, contents seen k = before s k) \/ (forall k, contents seen k = after s k)) .
Print Assumptions crash_reopens_atomically.

(* writing new records into free extents is an admissible transaction ... *)
Theorem new_records_admissible :
  forall (t : txn) (c0 : list cell),
  (forall i, In i (t_exts t) -> (i < length c0)%nat /\ forall g, nth i c0 CZero <> CGen g) ->
  (forall i c, In (i, c) (t_new t) -> In i (t_exts t) /\ c <> CJunk) ->
  txn_ok t c0.
Proof. exact write_batch_ok. Qed.
Check new_records_admissible :
  forall (t : txn) (c0 : list cell),
  (forall i, In i (t_exts t) -> (i < length c0)%nat /\ forall g, nth i c0 CZero <> CGen g) ->
  (forall i c, In (i, c) (t_new t) -> In i (t_exts t) /\ c <> CJunk) ->
  txn_ok t c0 .
Print Assumptions new_records_admissible.

(* ... and so is retiring extents whose generations are superseded by a strictly newer generation
   of the same key stored outside them (retire only after the successor is durable) *)
Theorem retirement_admissible :
  forall (exts : list nat) (c0 : list cell),
  NoDup exts ->
  (forall i, In i exts -> (i < length c0)%nat) ->
  (forall i g, In i exts -> nth i c0 CZero = CGen g ->
     exists j g', ~ In j exts /\ nth j c0 CZero = CGen g' /\ gk g' = gk g /\ gts g < gts g') ->
  txn_ok (mktxn exts (map (fun i => (i, CMarker)) exts)) c0.
Proof. exact retire_ok. Qed.
Check retirement_admissible :
  forall (exts : list nat) (c0 : list cell),
  NoDup exts ->
  (forall i, In i exts -> (i < length c0)%nat) ->
  (forall i g, In i exts -> nth i c0 CZero = CGen g ->
     exists j g', ~ In j exts /\ nth j c0 CZero = CGen g' /\ gk g' = gk g /\ gts g < gts g') ->
  txn_ok (mktxn exts (map (fun i => (i, CMarker)) exts)) c0 .
Print Assumptions retirement_admissible.

(* ---- at the byte level (Model/Recovery.v, Proofs/ScanGenerationsProofs.v): a data area that holds
   ANY number of generations of each key in any order -- what a crash between an update and the
   retirement of the superseded generation leaves --, completed marker runs and free blocks.  The
   scan ends without error and computes exactly the newest-wins fold over the records in device
   order (an older generation than the indexed one is queued for retirement, a generation at least
   as new replaces it and the replaced extent is released and queued); hence every key the scan
   exposes carries one generation, a generation that is on the device, and it is at least as new
   as every generation of that key on the device ---- *)
Theorem scan_keeps_the_newest_generation_of_every_key :
  forall c version total jl img its st0 fuel,
  Recovery.c_ro c = false -> Codec.has_token version = true -> total <= Recovery.U64MAX ->
  (length its < fuel)%nat ->
  Recovery.rs_fs st0 = FreeSpace.mkfs [] (total * Constants.FEOX_BLOCK_SIZE) 0 0 ->
  Recovery.rs_last_end st0 = Constants.FEOX_DATA_START_BLOCK -> Recovery.rs_idx st0 = [] ->
  total * Constants.FEOX_BLOCK_SIZE < FreeSpace.U64 ->
  Forall (ScanQuiescentProofs.item_ok version) its ->
  skipn (N.to_nat Constants.FEOX_DATA_START_BLOCK) img = ScanQuiescentProofs.ilayout version Constants.FEOX_DATA_START_BLOCK its ->
  total = Constants.FEOX_DATA_START_BLOCK + ScanQuiescentProofs.isum version its -> 0 < ScanQuiescentProofs.isum version its ->
  exists st',
    Recovery.scan fuel c version total img Constants.FEOX_DATA_START_BLOCK st0 jl = Recovery.Ok st' /\
    ScanGenerationsProofs.sem_of st' =
      fold_left (ScanGenerationsProofs.sem_step version) (ScanGenerationsProofs.placed version Constants.FEOX_DATA_START_BLOCK its)
                (ScanGenerationsProofs.sem_of st0) /\
    (forall r s, In (r, s) (ScanGenerationsProofs.placed version Constants.FEOX_DATA_START_BLOCK its) ->
                 exists e, Recovery.idx_find (Codec.r_key r) (Recovery.rs_idx st') = Some e /\ Codec.r_ts r <= Recovery.e_ts e) /\
    (forall k e, Recovery.idx_find k (Recovery.rs_idx st') = Some e ->
                 exists r s, In (r, s) (ScanGenerationsProofs.placed version Constants.FEOX_DATA_START_BLOCK its) /\
                             e = ScanQuiescentProofs.entry_of version r s).
Proof. exact ScanGenerationsProofs.scan_keeps_the_newest_generation_of_every_key. Qed.
Check scan_keeps_the_newest_generation_of_every_key :
  forall c version total jl img its st0 fuel,
  Recovery.c_ro c = false -> Codec.has_token version = true -> total <= Recovery.U64MAX ->
  (length its < fuel)%nat ->
  Recovery.rs_fs st0 = FreeSpace.mkfs [] (total * Constants.FEOX_BLOCK_SIZE) 0 0 ->
  Recovery.rs_last_end st0 = Constants.FEOX_DATA_START_BLOCK -> Recovery.rs_idx st0 = [] ->
  total * Constants.FEOX_BLOCK_SIZE < FreeSpace.U64 ->
  Forall (ScanQuiescentProofs.item_ok version) its ->
  skipn (N.to_nat Constants.FEOX_DATA_START_BLOCK) img = ScanQuiescentProofs.ilayout version Constants.FEOX_DATA_START_BLOCK its ->
  total = Constants.FEOX_DATA_START_BLOCK + ScanQuiescentProofs.isum version its -> 0 < ScanQuiescentProofs.isum version its ->
  exists st',
    Recovery.scan fuel c version total img Constants.FEOX_DATA_START_BLOCK st0 jl = Recovery.Ok st' /\
    ScanGenerationsProofs.sem_of st' =
      fold_left (ScanGenerationsProofs.sem_step version) (ScanGenerationsProofs.placed version Constants.FEOX_DATA_START_BLOCK its)
                (ScanGenerationsProofs.sem_of st0) /\
    (forall r s, In (r, s) (ScanGenerationsProofs.placed version Constants.FEOX_DATA_START_BLOCK its) ->
                 exists e, Recovery.idx_find (Codec.r_key r) (Recovery.rs_idx st') = Some e /\ Codec.r_ts r <= Recovery.e_ts e) /\
    (forall k e, Recovery.idx_find k (Recovery.rs_idx st') = Some e ->
                 exists r s, In (r, s) (ScanGenerationsProofs.placed version Constants.FEOX_DATA_START_BLOCK its) /\
                             e = ScanQuiescentProofs.entry_of version r s).
Print Assumptions scan_keeps_the_newest_generation_of_every_key.
(* non-vacuity: a concrete transaction on a concrete disk; a crash with a torn record write and a
   lost journal clear recovers the old contents; with the clear applied, the new contents *)
Definition g1 := mkgen 7 100 1.
Definition g2 := mkgen 7 200 2.
Definition d0 := mkdisk (SValid 4 JClear) (SValid 3 JClear) [CGen g1; CZero; CMarker].
Definition t1 := mktxn [1%nat] [(1%nat, CGen g2)].
Example txn_admissible : txn_ok t1 (cells d0).
Proof.
  apply write_batch_ok.
  - intros i [<-|[]]. split; [simpl; auto|]. intros g; simpl; discriminate.
  - intros i c [[= <- <-]|[]]. split; [left; auto|discriminate].
Qed.
Example crash_examples :
  (* journal active durable, record write torn *)
  option_map (fun l => contents l 7) (recover (mkdisk (SValid 4 JClear) (SValid 5 (JActive [1%nat])) [CGen g1; CJunk; CMarker])) = Some (Some g1) /\
  (* everything durable, clear applied *)
  option_map (fun l => contents l 7) (recover (mkdisk (SValid 6 JClear) (SValid 5 (JActive [1%nat])) [CGen g1; CGen g2; CMarker])) = Some (Some g2) /\
  (* a torn cell outside any journaled extent would make the open fail: the protocol never produces it *)
  recover (mkdisk (SValid 4 JClear) (SValid 3 JClear) [CGen g1; CJunk; CMarker]) = None.
Proof. vm_compute. repeat split; reflexivity. Qed.

(* non-vacuity: two generations of key k1 in both device orders around another key; the newer one
   (timestamp 30) is indexed either way, the older extent is queued for retirement *)
Example newest_generation_wins_either_order :
  let old := Codec.mkrec [107; 49] [1; 1] 20 0 in
  let new := Codec.mkrec [107; 49] [2; 2; 2] 30 0 in
  let other := Codec.mkrec [107; 50] [9] 5 0 in
  let run its :=
    let img := repeat (repeat 0 Codec.BLOCK) 16 ++ ScanQuiescentProofs.ilayout 3 16 its in
    match Recovery.scan 6 (Recovery.mkcfg false false None 168) 3 19 img 16
            (Recovery.mkrs [] (FreeSpace.mkfs [] (19 * 4096) 0 0) 0 0 0 [] 16 0) [] with
    | Recovery.Ok st => (map (fun e => (Recovery.e_key e, Recovery.e_ts e, Recovery.e_sector e)) (Recovery.rs_idx st),
                         Recovery.rs_retired st, Recovery.rs_count st)
    | _ => ([], [], 99)
    end in
  run [ScanQuiescentProofs.IRec old; ScanQuiescentProofs.IRec other; ScanQuiescentProofs.IRec new]
    = ([([107; 49], 30, 18); ([107; 50], 5, 17)], [(16, 1)], 2) /\
  run [ScanQuiescentProofs.IRec new; ScanQuiescentProofs.IRec other; ScanQuiescentProofs.IRec old]
    = ([([107; 49], 30, 16); ([107; 50], 5, 17)], [(18, 1)], 2).
Proof.
  intros old new other run.
  assert (Hok : forall r, In r [old; new; other] -> ScanQuiescentProofs.item_ok 3 (ScanQuiescentProofs.IRec r)).
  { intros r [<-|[<-|[<-|[]]]]; apply ScanAcceptsProofs.rec_ok_of_checks; vm_compute; reflexivity. }
  (* by the theorem the scan of such a layout is the newest-wins fold over its placed records;
     only that fold is evaluated *)
  assert (Hrun : forall a b c, let its := [ScanQuiescentProofs.IRec a; ScanQuiescentProofs.IRec b; ScanQuiescentProofs.IRec c] in
            Forall (ScanQuiescentProofs.item_ok 3) its -> ScanQuiescentProofs.isum 3 its = 3 ->
            let s := fold_left (ScanGenerationsProofs.sem_step 3) (ScanGenerationsProofs.placed 3 16 its) (ScanGenerationsProofs.mksem [] [] 0) in
            run its = (map (fun e => (Recovery.e_key e, Recovery.e_ts e, Recovery.e_sector e)) (ScanGenerationsProofs.s_idx s),
                       ScanGenerationsProofs.s_ret s, ScanGenerationsProofs.s_cnt s)).
  { intros a b c its Hits Hsum s.
    destruct (ScanGenerationsProofs.scan_keeps_the_newest_generation_of_every_key
                (Recovery.mkcfg false false None 168) 3 19 [] (repeat (repeat 0 Codec.BLOCK) 16 ++ ScanQuiescentProofs.ilayout 3 16 its) its
                (Recovery.mkrs [] (FreeSpace.mkfs [] (19 * 4096) 0 0) 0 0 0 [] 16 0) 6)
      as (st' & E & S & _); try reflexivity; try exact Hits.
    - vm_compute. discriminate.
    - cbn. lia.
    - change Constants.FEOX_DATA_START_BLOCK with 16. rewrite Hsum. reflexivity.
    - rewrite Hsum. reflexivity.
    - change Constants.FEOX_DATA_START_BLOCK with 16 in E, S.
      change (ScanGenerationsProofs.sem_of (Recovery.mkrs _ _ _ _ _ _ _ _)) with (ScanGenerationsProofs.mksem [] [] 0) in S.
      unfold run. rewrite E. fold s in S. rewrite <- S. reflexivity. }
  cbv zeta in Hrun.
  split; (rewrite Hrun; [vm_compute; reflexivity | repeat (apply Forall_cons; [apply Hok; cbn; tauto|]); apply Forall_nil | vm_compute; reflexivity]).
Qed.

(* ---- at the byte level, a crash inside a write batch: a file at rest whose journal is ACTIVE and
   names the extent of one record (the batch that was in flight).  The open replays the journal --
   the extent is overwritten with a completed run of retirement markers, a CLEAR record follows --
   and then reads the file like any file at rest: every other record is reported and the key count
   is theirs, the journaled one's extent is a marker run (all or nothing) and its blocks are free,
   and the file the open leaves behind is itself a file at rest with the same length ---- *)

Theorem crashed_batch_is_rolled_back :
  forall c img m jgen jslot its1 r its2,
  Recovery.c_ro c = false -> Recovery.c_now c = None ->
  (17 <= length img)%nat ->
  let total := N.of_nat (length img) in
  let mb := if MetaJournal.select_meta (Recovery.nth_block img 0) (Recovery.nth_block img (N.to_nat Constants.FEOX_METADATA_BACKUP_BLOCK))
            then Recovery.nth_block img (N.to_nat Constants.FEOX_METADATA_BACKUP_BLOCK) else Recovery.nth_block img 0 in
  let v := MetaJournal.m_version m in
  let s := Constants.FEOX_DATA_START_BLOCK + ScanQuiescentProofs.isum v its1 in
  let n := ScanAcceptsProofs.need_of v r in
  Bytes.list_eqb (firstn 8 mb) MetaJournal.SIGNATURE = true -> MetaJournal.decode_meta mb = Some m -> Codec.has_token v = true ->
  MetaJournal.decode_journal (Recovery.slot_bytes img 0) (Recovery.slot_bytes img 1) total = Some (jgen, jslot, [(s, n)]) ->
  jgen < Recovery.U64MAX ->
  total * Constants.FEOX_BLOCK_SIZE < FreeSpace.U64 ->
  Forall (ScanQuiescentProofs.item_ok v) (its1 ++ ScanQuiescentProofs.IRec r :: its2) -> ScanAcceptsProofs.distinct_keys (ScanQuiescentProofs.recs_of (its1 ++ its2)) ->
  skipn (N.to_nat Constants.FEOX_DATA_START_BLOCK) img = ScanQuiescentProofs.ilayout v Constants.FEOX_DATA_START_BLOCK (its1 ++ ScanQuiescentProofs.IRec r :: its2) ->
  exists o img',
    Recovery.open_image c img = (Recovery.Ok o, img') /\
    length img' = length img /\
    skipn (N.to_nat Constants.FEOX_DATA_START_BLOCK) img' = ScanQuiescentProofs.ilayout v Constants.FEOX_DATA_START_BLOCK (its1 ++ ScanQuiescentProofs.IMark n :: its2) /\
    (forall r', In r' (ScanQuiescentProofs.recs_of (its1 ++ its2)) -> exists s', Recovery.idx_find (Codec.r_key r') (Recovery.o_idx o) = Some (ScanQuiescentProofs.entry_of v r' s')) /\
    Recovery.o_count o = N.of_nat (length (ScanQuiescentProofs.recs_of (its1 ++ its2))) /\
    (forall b, Constants.FEOX_DATA_START_BLOCK <= b < total ->
               (FreeSpaceProofs.free (Recovery.o_fs o) b <-> ~ ScanQuiescentProofs.covered v Constants.FEOX_DATA_START_BLOCK (its1 ++ ScanQuiescentProofs.IMark n :: its2) b)) /\
    img' = ReplayRollbackProofs.rolled_back img jgen jslot s n.
Proof. exact ReplayRollbackProofs.crashed_batch_is_rolled_back. Qed.
Check crashed_batch_is_rolled_back :
  forall c img m jgen jslot its1 r its2,
  Recovery.c_ro c = false -> Recovery.c_now c = None ->
  (17 <= length img)%nat ->
  let total := N.of_nat (length img) in
  let mb := if MetaJournal.select_meta (Recovery.nth_block img 0) (Recovery.nth_block img (N.to_nat Constants.FEOX_METADATA_BACKUP_BLOCK))
            then Recovery.nth_block img (N.to_nat Constants.FEOX_METADATA_BACKUP_BLOCK) else Recovery.nth_block img 0 in
  let v := MetaJournal.m_version m in
  let s := Constants.FEOX_DATA_START_BLOCK + ScanQuiescentProofs.isum v its1 in
  let n := ScanAcceptsProofs.need_of v r in
  Bytes.list_eqb (firstn 8 mb) MetaJournal.SIGNATURE = true -> MetaJournal.decode_meta mb = Some m -> Codec.has_token v = true ->
  MetaJournal.decode_journal (Recovery.slot_bytes img 0) (Recovery.slot_bytes img 1) total = Some (jgen, jslot, [(s, n)]) ->
  jgen < Recovery.U64MAX ->
  total * Constants.FEOX_BLOCK_SIZE < FreeSpace.U64 ->
  Forall (ScanQuiescentProofs.item_ok v) (its1 ++ ScanQuiescentProofs.IRec r :: its2) -> ScanAcceptsProofs.distinct_keys (ScanQuiescentProofs.recs_of (its1 ++ its2)) ->
  skipn (N.to_nat Constants.FEOX_DATA_START_BLOCK) img = ScanQuiescentProofs.ilayout v Constants.FEOX_DATA_START_BLOCK (its1 ++ ScanQuiescentProofs.IRec r :: its2) ->
  exists o img',
    Recovery.open_image c img = (Recovery.Ok o, img') /\
    length img' = length img /\
    skipn (N.to_nat Constants.FEOX_DATA_START_BLOCK) img' = ScanQuiescentProofs.ilayout v Constants.FEOX_DATA_START_BLOCK (its1 ++ ScanQuiescentProofs.IMark n :: its2) /\
    (forall r', In r' (ScanQuiescentProofs.recs_of (its1 ++ its2)) -> exists s', Recovery.idx_find (Codec.r_key r') (Recovery.o_idx o) = Some (ScanQuiescentProofs.entry_of v r' s')) /\
    Recovery.o_count o = N.of_nat (length (ScanQuiescentProofs.recs_of (its1 ++ its2))) /\
    (forall b, Constants.FEOX_DATA_START_BLOCK <= b < total ->
               (FreeSpaceProofs.free (Recovery.o_fs o) b <-> ~ ScanQuiescentProofs.covered v Constants.FEOX_DATA_START_BLOCK (its1 ++ ScanQuiescentProofs.IMark n :: its2) b)) /\
    img' = ReplayRollbackProofs.rolled_back img jgen jslot s n.
Print Assumptions crashed_batch_is_rolled_back.
(* non-vacuity: a 20-block file -- free block, a two-block record named by an ACTIVE journal record
   in slot 0, a one-block record -- meets the premises; the open reports the second record only *)
Example a_crashed_batch :
  let r1 := Codec.mkrec [107; 49] (repeat 7 5000) 11 0 in
  let r2 := Codec.mkrec [107; 50] [1; 2; 3] 12 99 in
  let m := MetaJournal.mkmeta 3 2 5033 (20 * 4096) 4096 0 1 2 4 (repeat 0 48) in
  let z := repeat 0 Codec.BLOCK in
  let j := MetaJournal.encode_journal 5 Constants.JOURNAL_ACTIVE [(17, 2)] in
  let jb := Recovery.chunk_blocks (j ++ Bytes.zeros (3 * Codec.BLOCK - length j)) 3 in
  let img := [MetaJournal.meta_block m] ++ jb ++ [z; z; z; MetaJournal.meta_block m; z; z; z; z; z; z; z; z]
             ++ ScanQuiescentProofs.ilayout 3 16 ([ScanQuiescentProofs.IFree] ++ ScanQuiescentProofs.IRec r1 :: [ScanQuiescentProofs.IRec r2]) in
  length img = 20%nat /\
  MetaJournal.decode_journal (Recovery.slot_bytes img 0) (Recovery.slot_bytes img 1) 20
    = Some (5, 0, [(16 + ScanQuiescentProofs.isum 3 [ScanQuiescentProofs.IFree], ScanAcceptsProofs.need_of 3 r1)]) /\
  match Recovery.open_image (Recovery.mkcfg false false None 168) img with
  | (Recovery.Ok o, img') => map (fun e => (Recovery.e_key e, Recovery.e_sector e)) (Recovery.o_idx o) = [([107; 50], 19)] /\
                    FreeSpace.runs (Recovery.o_fs o) = [(16, 3)] /\
                    skipn 16 img' = ScanQuiescentProofs.ilayout 3 16 ([ScanQuiescentProofs.IFree] ++ ScanQuiescentProofs.IMark 2 :: [ScanQuiescentProofs.IRec r2])
  | _ => False
  end.
Proof.
  (* the file meets the premises of the theorem (each checked on a block or a slot); the open is then
     [irun] over the items and the release of the tail, which read no byte of the image *)
  intros r1 r2 m z j jb img.
  pose (its1 := [ScanQuiescentProofs.IFree]). pose (its2 := [ScanQuiescentProofs.IRec r2]).
  assert (Hok : Forall (ScanQuiescentProofs.item_ok 3) (its1 ++ ScanQuiescentProofs.IRec r1 :: its2)).
  { apply Forall_cons; [exact I|].
    apply Forall_cons; [|apply Forall_cons; [|apply Forall_nil]]; apply ScanAcceptsProofs.rec_ok_of_checks; vm_compute; reflexivity. }
  assert (Hd : ScanAcceptsProofs.distinct_keys (ScanQuiescentProofs.recs_of (its1 ++ its2))).
  { split; [intros ? []|exact I]. }
  assert (Htot : N.of_nat (@length Recovery.block img) = 20) by (vm_compute; reflexivity).
  assert (Hlen : (17 <= length img)%nat) by (apply PeanoNat.Nat.leb_le; vm_compute; reflexivity).
  assert (Hu : N.of_nat (length img) * Constants.FEOX_BLOCK_SIZE < FreeSpace.U64) by (apply N.ltb_lt; vm_compute; reflexivity).
  assert (Hj : MetaJournal.decode_journal (Recovery.slot_bytes img 0) (Recovery.slot_bytes img 1) (N.of_nat (length img))
               = Some (5, 0, [(17, 2)])) by (vm_compute; reflexivity).
  assert (Hg : 5 < Recovery.U64MAX) by (vm_compute; reflexivity).
  set (mb := if MetaJournal.select_meta (Recovery.nth_block img 0) (Recovery.nth_block img (N.to_nat Constants.FEOX_METADATA_BACKUP_BLOCK))
              then Recovery.nth_block img (N.to_nat Constants.FEOX_METADATA_BACKUP_BLOCK) else Recovery.nth_block img 0).
  assert (Hsig : Bytes.list_eqb (firstn 8 mb) MetaJournal.SIGNATURE = true) by (vm_compute; reflexivity).
  assert (Hdec : MetaJournal.decode_meta mb = Some m) by (vm_compute; reflexivity).
  pose proof (ReplayRollbackProofs.open_of_a_crashed_batch (Recovery.mkcfg false false None 168) img m 5 0 its1 r1 its2
                eq_refl eq_refl Hlen) as O. cbv zeta in O.
  specialize (O Hsig Hdec eq_refl Hj Hg Hu Hok Hd eq_refl). destruct O as (st' & f & R & G & E & _ & S1 & _).
  split; [apply Nat2N.inj; exact Htot|]. split; [rewrite <- Htot; exact Hj|].
  rewrite E. rewrite Htot in R, G.
  vm_compute in R. injection R as <-. vm_compute in G. injection G as <-.
  split; [reflexivity|]. split; [reflexivity|exact S1].
Qed.

(* C02 -- acknowledged data survives any later crash.  An acknowledgement (flush() == Ok, clean
   close) is a quiescent protocol state: every transaction issued before it is complete. *)
From Coq Require Import List NArith.
From Feox Require Import Model.Device Proofs.CrashProofs.
From Feox Require Model.Gate Proofs.GateProofs.
Import ListNotations.
Local Open Scope N_scope.

(* For every history continuing from an acknowledgement, every later state and every crash image
   of it (any subset / tearing of the un-synced writes): the device reopens, and its contents are
   exactly the contents of some quiescent state AT OR AFTER the acknowledgement -- so every key
   has the state it had at the acknowledgement or a later one from the history, never an earlier
   one; an acknowledged delete does not come back, an acknowledged value is not replaced by an
   older generation. *)
Theorem acknowledged_state_survives :
  forall s_ack s d,
  PInv s_ack -> ph s_ack = Idle -> reach s_ack s -> crash_image (dv s) d ->
  exists s_i seen, reach s_ack s_i /\ ph s_i = Idle /\ recover d = Some seen /\
    forall k, contents seen k = contents (cells (durable (dv s_i))) k.
Proof. exact ack_durable. Qed.
Check acknowledged_state_survives :
  forall s_ack s d,
  PInv s_ack -> ph s_ack = Idle -> reach s_ack s -> crash_image (dv s) d ->
  exists s_i seen, reach s_ack s_i /\ ph s_i = Idle /\ recover d = Some seen /\
    forall k, contents seen k = contents (cells (durable (dv s_i))) k .
Print Assumptions acknowledged_state_survives.

(* a quiescent state satisfies the invariant the theorem starts from *)
Theorem quiescent_is_invariant :
  forall s, quiescent s -> PInv s.
Proof. exact quiescent_PInv. Qed.
Check quiescent_is_invariant :
  forall s, quiescent s -> PInv s .
Print Assumptions quiescent_is_invariant.

(* within one transaction the outcome is all-or-nothing *)
Theorem transaction_all_or_nothing :
  forall s d,
  PInv s -> crash_image (dv s) d ->
  exists seen, recover d = Some seen /\
    ((forall k, contents seen k = before s k) \/ (forall k, contents seen k = after s k)).
Proof. exact crash_atomic. Qed.
Check transaction_all_or_nothing :
  forall s d,
  PInv s -> crash_image (dv s) d ->
  exists seen, recover d = Some seen /\
    ((forall k, contents seen k = before s k) \/ (forall k, contents seen k = after s k)) .
Print Assumptions transaction_all_or_nothing.

(* ---- the retirement gate (Model/Gate.v = Record::successor_is_durable_or_deleted): the extent
   of a superseded generation is retired only when this answers true ---- *)

(* a positive answer means that the generation has no successor (the gate then does not look at
   its refcount, as in record.rs), or that its successor chain reaches a generation that is on the
   device or ends in a deleted one; the memo bits stay sound *)
Theorem gate_true_means_superseded_durably_or_deleted :
  forall l x l',
  GateProofs.memo_ok l -> Gate.gate l x = (true, l') ->
  GateProofs.memo_ok l' /\
  forall me, nth_error l x = Some me -> Gate.gn_succ me = None \/ exists s, Gate.gn_succ me = Some s /\ GateProofs.good l s.
Proof. exact GateProofs.gate_true_means_superseded_durably_or_deleted. Qed.
Check gate_true_means_superseded_durably_or_deleted :
  forall l x l',
  GateProofs.memo_ok l -> Gate.gate l x = (true, l') ->
  GateProofs.memo_ok l' /\
  forall me, nth_error l x = Some me -> Gate.gn_succ me = None \/ exists s, Gate.gn_succ me = Some s /\ GateProofs.good l s.
Print Assumptions gate_true_means_superseded_durably_or_deleted.

Theorem good_chain_reaches_durable_or_deleted :
  forall l c, GateProofs.good l c ->
  exists d n, GateProofs.reach l c d /\ nth_error l d = Some n /\ (0 < Gate.gn_sector n \/ (Gate.gn_succ n = None /\ Gate.gn_ref n = 0)).
Proof. exact GateProofs.good_unfolds. Qed.
Check good_chain_reaches_durable_or_deleted :
  forall l c, GateProofs.good l c ->
  exists d n, GateProofs.reach l c d /\ nth_error l d = Some n /\ (0 < Gate.gn_sector n \/ (Gate.gn_succ n = None /\ Gate.gn_ref n = 0)) .
Print Assumptions good_chain_reaches_durable_or_deleted.

(* it refuses only when the chain ends in a live generation that is not on the device yet *)
Theorem gate_false_means_successor_not_durable :
  forall l x l',
  GateProofs.forward l -> Gate.gate l x = (false, l') ->
  l' = l /\ exists me s, nth_error l x = Some me /\ Gate.gn_succ me = Some s /\ ~ GateProofs.good l s.
Proof. exact GateProofs.gate_false_means_successor_not_durable. Qed.
Check gate_false_means_successor_not_durable :
  forall l x l',
  GateProofs.forward l -> Gate.gate l x = (false, l') ->
  l' = l /\ exists me s, nth_error l x = Some me /\ Gate.gn_succ me = Some s /\ ~ GateProofs.good l s .
Print Assumptions gate_false_means_successor_not_durable.

(* publishing, deleting and superseding generations never invalidate a memo bit *)
Theorem gate_memo_stays_sound :
  forall l e, GateProofs.memo_ok l -> GateProofs.memo_ok (GateProofs.gstep l e).
Proof. exact GateProofs.memo_stays_sound. Qed.
Check gate_memo_stays_sound :
  forall l e, GateProofs.memo_ok l -> GateProofs.memo_ok (GateProofs.gstep l e).
Print Assumptions gate_memo_stays_sound.

(* non-vacuity: a quiescent state, from which the theorems above start *)
Example quiescent_example :
  quiescent (mkps (mkdev (mkdisk (SValid 4 JClear) (SValid 3 JClear) [CZero; CMarker]) []) Idle 4 false [CZero; CMarker]).
Proof. repeat split; simpl; auto. left; reflexivity. Qed.

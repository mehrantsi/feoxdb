(* C11 -- expiry is exact: never visible after, never lost before, stable over restart
   First the reference map (every call, and reopen); then the sweeper and lazy retirement racing
   with writers (Model/Sweep.v); then recovery at byte level (Model/Recovery.v).  The absolute
   expiry instant surviving flush+restart bit for bit is the codec round trip of C10 plus the
   whole-file check; crash points inside recovery are C04. *)
From Coq Require Import List NArith Bool.
From Feox Require Import Model.Lww Proofs.LwwProofs.
From Feox Require Model.Codec Model.FreeSpace Model.Recovery Proofs.ScanQuiescentProofs Proofs.ScanGenerationsProofs Proofs.ScanExpiryProofs.
From Feox Require Model.Sched Model.Sweep Proofs.SweepProofs.
Import ListNotations.
Local Open Scope N_scope.

(* once the expiry instant has passed, no value-reading call returns the value *)
Theorem expired_never_visible :
  forall c s e k g,
  sorted (kv s) ->
  ttl_on c = true -> find k (kv s) = Some g -> 0 < g_exp g -> g_exp g < e_tb e -> validate_key k = None ->
  snd (step c s (Get k) e) = OErr KeyNotFound /\
  (forall x v ts ttl, is_err (snd (step c s (Cas k x v ts ttl) e)) = true \/ snd (step c s (Cas k x v ts ttl) e) = OBool false) /\
  (forall ttl, ttl_write_supported c = true -> snd (step c s (UpdateTtl k ttl) e) = OErr KeyNotFound) /\
  (forall a b v, ~ In (k, v) (range_spec c (kv s) a b (e_tb e) (e_ta e))).
Proof. exact never_visible_after. Qed.
Check expired_never_visible :
  forall c s e k g,
  sorted (kv s) ->
  ttl_on c = true -> find k (kv s) = Some g -> 0 < g_exp g -> g_exp g < e_tb e -> validate_key k = None ->
  snd (step c s (Get k) e) = OErr KeyNotFound /\
  (forall x v ts ttl, is_err (snd (step c s (Cas k x v ts ttl) e)) = true \/ snd (step c s (Cas k x v ts ttl) e) = OBool false) /\
  (forall ttl, ttl_write_supported c = true -> snd (step c s (UpdateTtl k ttl) e) = OErr KeyNotFound) /\
  (forall a b v, ~ In (k, v) (range_spec c (kv s) a b (e_tb e) (e_ta e))) .
Print Assumptions expired_never_visible.

(* while the newest generation is unexpired or has no expiry, it is returned *)
Theorem unexpired_always_visible :
  forall c s e k g,
  e_tb e <= e_ta e -> find k (kv s) = Some g -> validate_key k = None ->
  (ttl_on c = false \/ g_exp g = 0 \/ e_ta e <= g_exp g) ->
  snd (step c s (Get k) e) = OVal (g_val g).
Proof. exact never_hidden_before. Qed.
Check unexpired_always_visible :
  forall c s e k g,
  e_tb e <= e_ta e -> find k (kv s) = Some g -> validate_key k = None ->
  (ttl_on c = false \/ g_exp g = 0 \/ e_ta e <= g_exp g) ->
  snd (step c s (Get k) e) = OVal (g_val g) .
Print Assumptions unexpired_always_visible.

(* ... and no call other than a delete of that key removes it *)
Theorem unexpired_never_removed :
  forall c s o e k g,
  Inv c s -> e_tb e <= e_ta e -> find k (kv s) = Some g ->
  (ttl_on c = false \/ g_exp g = 0 \/ e_ta e <= g_exp g) ->
  (forall ts, o <> Delete k ts) ->
  find k (kv (fst (step c s o e))) <> None.
Proof. intros c s o e k g _. exact (unexpired_not_removed c s o e k g). Qed.
Check unexpired_never_removed :
  forall c s o e k g,
  Inv c s -> e_tb e <= e_ta e -> find k (kv s) = Some g ->
  (ttl_on c = false \/ g_exp g = 0 \/ e_ta e <= g_exp g) ->
  (forall ts, o <> Delete k ts) ->
  find k (kv (fst (step c s o e))) <> None .
Print Assumptions unexpired_never_removed.

(* recovery keeps every unexpired key *)
Theorem restart_keeps_unexpired :
  forall c s tb ta shards clk s' k g,
  tb <= ta -> reopen c s tb ta shards clk = ReOk s' -> In (k, g) (kv s) ->
  (ttl_on c = false \/ g_exp g = 0 \/ ta <= g_exp g) -> In (k, g) (kv s').
Proof. exact reopen_keeps_unexpired. Qed.
Check restart_keeps_unexpired :
  forall c s tb ta shards clk s' k g,
  tb <= ta -> reopen c s tb ta shards clk = ReOk s' -> In (k, g) (kv s) ->
  (ttl_on c = false \/ g_exp g = 0 \/ ta <= g_exp g) -> In (k, g) (kv s') .
Print Assumptions restart_keeps_unexpired.

(* a TTL-only update keeps the value and moves the version forward *)
Theorem ttl_update_keeps_value :
  forall c s e k ttl old,
  find k (kv s) = Some old -> snd (step c s (UpdateTtl k ttl) e) = OUnit -> sorted (kv s) ->
  exists g, find k (kv (fst (step c s (UpdateTtl k ttl) e))) = Some g /\ g_val g = g_val old /\ g_ts old < g_ts g.
Proof. intros c s e k ttl old F U _. exact (ttl_only_update_keeps_value c s e k ttl old F U). Qed.
Check ttl_update_keeps_value :
  forall c s e k ttl old,
  find k (kv s) = Some old -> snd (step c s (UpdateTtl k ttl) e) = OUnit -> sorted (kv s) ->
  exists g, find k (kv (fst (step c s (UpdateTtl k ttl) e))) = Some g /\ g_val g = g_val old /\ g_ts old < g_ts g .
Print Assumptions ttl_update_keeps_value.

(* ---- concurrent clause (Model/Sweep.v): the sweeper and lazy retirement racing with writers that
   renew, replace or delete the key, under a clock that only grows; every schedule ---- *)

(* while nobody writes or deletes the key, its current generation stays in the table for as long
   as it is unexpired or has no expiry: through any number of sweeper batches, lazy retirements,
   writes to other keys and clock ticks, in any order *)
Theorem unexpired_survives_sweeper_and_lazy_retirement :
  forall es s k g,
  SweepProofs.SwInv s -> forallb (fun e => negb (Sweep.client_write_on k e)) es = true ->
  Sched.aget k (Sweep.ss_tbl s) = Some g ->
  Sweep.expired_at g (Sweep.ss_now (Sweep.sfinal s es)) = false ->
  Sched.aget k (Sweep.ss_tbl (Sweep.sfinal s es)) = Some g.
Proof. exact SweepProofs.unexpired_generation_survives. Qed.
Check unexpired_survives_sweeper_and_lazy_retirement :
  forall es s k g,
  SweepProofs.SwInv s -> forallb (fun e => negb (Sweep.client_write_on k e)) es = true ->
  Sched.aget k (Sweep.ss_tbl s) = Some g ->
  Sweep.expired_at g (Sweep.ss_now (Sweep.sfinal s es)) = false ->
  Sched.aget k (Sweep.ss_tbl (Sweep.sfinal s es)) = Some g .
Print Assumptions unexpired_survives_sweeper_and_lazy_retirement.

(* the hypothesis SwInv holds in every reachable state *)
Theorem sweep_invariant_reachable :
  forall es s, SweepProofs.SwInv s -> SweepProofs.SwInv (Sweep.sfinal s es).
Proof. exact SweepProofs.srun_inv. Qed.
Check sweep_invariant_reachable :
  forall es s, SweepProofs.SwInv s -> SweepProofs.SwInv (Sweep.sfinal s es) .
Print Assumptions sweep_invariant_reachable.

(* every removal by expiry ever made -- by the sweeper or lazily -- took out a generation that was
   expired at the wall clock of the removal *)
Theorem expiry_removes_only_expired :
  forall es r, In r (Sweep.ss_log (Sweep.sfinal Sweep.sinit es)) ->
  Sweep.expired_at (Sweep.r_gen r) (Sweep.r_clock r) = true.
Proof. exact SweepProofs.expiry_removes_only_expired. Qed.
Check expiry_removes_only_expired :
  forall es r, In r (Sweep.ss_log (Sweep.sfinal Sweep.sinit es)) ->
  Sweep.expired_at (Sweep.r_gen r) (Sweep.r_clock r) = true .
Print Assumptions expiry_removes_only_expired.

(* one event changes a key's entry only by a client's write to that key or by removing its current,
   expired generation: a renewed key is never removed on behalf of the generation it replaced *)
Theorem entry_changes_only_by_write_or_expiry :
  forall es e k,
  let s := Sweep.sfinal Sweep.sinit es in
  let s' := fst (Sweep.sstep s e) in
  Sched.aget k (Sweep.ss_tbl s') = Sched.aget k (Sweep.ss_tbl s) \/ Sweep.client_write_on k e = true \/
  (exists g, Sched.aget k (Sweep.ss_tbl s) = Some g /\ Sched.aget k (Sweep.ss_tbl s') = None /\ Sweep.expired_at g (Sweep.ss_now s) = true).
Proof. exact SweepProofs.entry_changes_only_by_write_or_expiry. Qed.
Check entry_changes_only_by_write_or_expiry :
  forall es e k,
  let s := Sweep.sfinal Sweep.sinit es in
  let s' := fst (Sweep.sstep s e) in
  Sched.aget k (Sweep.ss_tbl s') = Sched.aget k (Sweep.ss_tbl s) \/ Sweep.client_write_on k e = true \/
  (exists g, Sched.aget k (Sweep.ss_tbl s) = Some g /\ Sched.aget k (Sweep.ss_tbl s') = None /\ Sweep.expired_at g (Sweep.ss_now s) = true) .
Print Assumptions entry_changes_only_by_write_or_expiry.

(* no older generation reappears: the identities a key's entry goes through only grow, and a key
   removed by expiry stays absent until a client writes it again *)
Theorem generations_only_move_forward :
  forall es s k g g',
  SweepProofs.SwInv s -> Sched.aget k (Sweep.ss_tbl s) = Some g -> Sched.aget k (Sweep.ss_tbl (Sweep.sfinal s es)) = Some g' ->
  Sweep.sg_id g <= Sweep.sg_id g'.
Proof. exact SweepProofs.generations_only_move_forward. Qed.
Check generations_only_move_forward :
  forall es s k g g',
  SweepProofs.SwInv s -> Sched.aget k (Sweep.ss_tbl s) = Some g -> Sched.aget k (Sweep.ss_tbl (Sweep.sfinal s es)) = Some g' ->
  Sweep.sg_id g <= Sweep.sg_id g'.
Print Assumptions generations_only_move_forward.

Theorem expired_key_stays_absent :
  forall es s k,
  SweepProofs.SwInv s -> Sched.aget k (Sweep.ss_tbl s) = None ->
  forallb (fun e => negb (Sweep.client_write_on k e)) es = true ->
  Sched.aget k (Sweep.ss_tbl (Sweep.sfinal s es)) = None.
Proof. exact SweepProofs.expired_key_stays_absent. Qed.
Check expired_key_stays_absent :
  forall es s k,
  SweepProofs.SwInv s -> Sched.aget k (Sweep.ss_tbl s) = None ->
  forallb (fun e => negb (Sweep.client_write_on k e)) es = true ->
  Sched.aget k (Sweep.ss_tbl (Sweep.sfinal s es)) = None .
Print Assumptions expired_key_stays_absent.

(* a read never returns a generation that is expired at the clock of the read *)
Theorem read_never_returns_expired :
  forall s k v, snd (Sweep.sstep s (Sweep.EGet k)) = Sweep.SVal (Some v) ->
  exists g, Sched.aget k (Sweep.ss_tbl s) = Some g /\ Sweep.expired_at g (Sweep.ss_now s) = false /\ Sweep.sg_val g = v.
Proof. exact SweepProofs.get_never_returns_expired. Qed.
Check read_never_returns_expired :
  forall s k v, snd (Sweep.sstep s (Sweep.EGet k)) = Sweep.SVal (Some v) ->
  exists g, Sched.aget k (Sweep.ss_tbl s) = Some g /\ Sweep.expired_at g (Sweep.ss_now s) = false /\ Sweep.sg_val g = v .
Print Assumptions read_never_returns_expired.

(* ---- recovery (byte level, Model/Recovery.v): the scan keeps the newest generation of every key,
   then remove_expired_recovery_winners goes over the whole index.  Afterwards a key is exposed
   exactly when its newest generation on the device has not expired, and then with that generation;
   a key whose newest generation has expired is absent although older generations of it are on
   the device -- no older generation takes its place (that the entry the scan keeps is itself a
   generation on the device is C03.scan_keeps_the_newest_generation_of_every_key) ---- *)
Theorem recovery_hides_keys_whose_newest_generation_expired :
  forall c version total now jl img its st0 fuel,
  Recovery.c_ro c = false -> Codec.has_token version = true -> (total <= Recovery.U64MAX)%N ->
  (length its < fuel)%nat ->
  Recovery.rs_fs st0 = FreeSpace.mkfs [] (total * Constants.FEOX_BLOCK_SIZE)%N 0%N 0%N ->
  Recovery.rs_last_end st0 = Constants.FEOX_DATA_START_BLOCK -> Recovery.rs_idx st0 = [] ->
  (total * Constants.FEOX_BLOCK_SIZE < FreeSpace.U64)%N ->
  Forall (ScanQuiescentProofs.item_ok version) its ->
  skipn (N.to_nat Constants.FEOX_DATA_START_BLOCK) img = ScanQuiescentProofs.ilayout version Constants.FEOX_DATA_START_BLOCK its ->
  total = (Constants.FEOX_DATA_START_BLOCK + ScanQuiescentProofs.isum version its)%N -> (0 < ScanQuiescentProofs.isum version its)%N ->
  exists st1 st2,
    Recovery.scan fuel c version total img Constants.FEOX_DATA_START_BLOCK st0 jl = Recovery.Ok st1 /\
    Recovery.expire_winners c version now (Recovery.rs_idx st1) st1 = Recovery.Ok st2 /\
    (forall r s, In (r, s) (ScanGenerationsProofs.placed version Constants.FEOX_DATA_START_BLOCK its) ->
                 exists e, Recovery.idx_find (Codec.r_key r) (Recovery.rs_idx st1) = Some e /\ (Codec.r_ts r <= Recovery.e_ts e)%N) /\
    (forall k, Recovery.idx_find k (Recovery.rs_idx st2) =
               match Recovery.idx_find k (Recovery.rs_idx st1) with
               | Some e => if ScanExpiryProofs.expired now e then None else Some e
               | None => None
               end).
Proof. exact ScanExpiryProofs.recovery_hides_keys_whose_newest_generation_expired. Qed.
Check recovery_hides_keys_whose_newest_generation_expired :
  forall c version total now jl img its st0 fuel,
  Recovery.c_ro c = false -> Codec.has_token version = true -> (total <= Recovery.U64MAX)%N ->
  (length its < fuel)%nat ->
  Recovery.rs_fs st0 = FreeSpace.mkfs [] (total * Constants.FEOX_BLOCK_SIZE)%N 0%N 0%N ->
  Recovery.rs_last_end st0 = Constants.FEOX_DATA_START_BLOCK -> Recovery.rs_idx st0 = [] ->
  (total * Constants.FEOX_BLOCK_SIZE < FreeSpace.U64)%N ->
  Forall (ScanQuiescentProofs.item_ok version) its ->
  skipn (N.to_nat Constants.FEOX_DATA_START_BLOCK) img = ScanQuiescentProofs.ilayout version Constants.FEOX_DATA_START_BLOCK its ->
  total = (Constants.FEOX_DATA_START_BLOCK + ScanQuiescentProofs.isum version its)%N -> (0 < ScanQuiescentProofs.isum version its)%N ->
  exists st1 st2,
    Recovery.scan fuel c version total img Constants.FEOX_DATA_START_BLOCK st0 jl = Recovery.Ok st1 /\
    Recovery.expire_winners c version now (Recovery.rs_idx st1) st1 = Recovery.Ok st2 /\
    (forall r s, In (r, s) (ScanGenerationsProofs.placed version Constants.FEOX_DATA_START_BLOCK its) ->
                 exists e, Recovery.idx_find (Codec.r_key r) (Recovery.rs_idx st1) = Some e /\ (Codec.r_ts r <= Recovery.e_ts e)%N) /\
    (forall k, Recovery.idx_find k (Recovery.rs_idx st2) =
               match Recovery.idx_find k (Recovery.rs_idx st1) with
               | Some e => if ScanExpiryProofs.expired now e then None else Some e
               | None => None
               end).
Print Assumptions recovery_hides_keys_whose_newest_generation_expired.
Example expiry_example :
  let c := mkcfg false true 3 None 168 in
  let e0 := mkenv 0 0 1000000000000 1000000000001 0 None in
  let s1 := fst (step c init (Insert [1] [7] (Some 100) 5 true) e0) in
  (* expiry = 100 + 5e9, far below now = 1e12: invisible; the key still occupies its slot *)
  snd (step c s1 (Get [1]) e0) = OErr KeyNotFound /\ snd (step c s1 (Contains [1]) e0) = OBool true.
Proof. vm_compute. split; reflexivity. Qed.

(* non-vacuity of the concurrent clause: the sweeper samples an expired generation, the key is
   renewed before the guarded step, the sweeper's removal finds another generation and leaves it;
   the same schedule without the renewal removes the key *)
Example renewal_wins_against_a_parked_sweeper :
  let race := [Sweep.ETick 1000; Sweep.EPut 7 500 1; Sweep.ESample; Sweep.EPut 7 5000 2; Sweep.EProc 7] in
  let plain := [Sweep.ETick 1000; Sweep.EPut 7 500 1; Sweep.ESample; Sweep.EProc 7] in
  option_map Sweep.sg_val (Sched.aget 7 (Sweep.ss_tbl (Sweep.sfinal Sweep.sinit race))) = Some 2 /\
  Sched.aget 7 (Sweep.ss_tbl (Sweep.sfinal Sweep.sinit plain)) = None /\
  length (Sweep.ss_log (Sweep.sfinal Sweep.sinit plain)) = 1%nat.
Proof. vm_compute. repeat split. Qed.

(* non-vacuity: key k1 has an old generation without expiry and a newest one that expired (expiry 50,
   now 100); k2 lives.  After recovery k1 is absent, k2 present; both extents of k1 are queued *)
Example expired_newest_generation_hides_the_key :
  let old := Codec.mkrec [107; 49] [1; 1] 20 0 in
  let new := Codec.mkrec [107; 49] [2; 2; 2] 30 50 in
  let other := Codec.mkrec [107; 50] [9] 5 0 in
  let its := [ScanQuiescentProofs.IRec old; ScanQuiescentProofs.IRec other; ScanQuiescentProofs.IRec new] in
  let img := repeat (repeat 0%N Codec.BLOCK) 16 ++ ScanQuiescentProofs.ilayout 3 16 its in
  let c := Recovery.mkcfg false false (Some 100%N) 168 in
  match Recovery.scan 6 c 3 19 img 16 (Recovery.mkrs [] (FreeSpace.mkfs [] (19 * 4096) 0 0) 0 0 0 [] 16 0) [] with
  | Recovery.Ok st1 =>
      match Recovery.expire_winners c 3 100 (Recovery.rs_idx st1) st1 with
      | Recovery.Ok st2 => map Recovery.e_key (Recovery.rs_idx st2) = [[107; 50]]%N /\
                           Recovery.rs_retired st2 = [(18, 1); (16, 1)]%N /\ Recovery.rs_count st2 = 1%N
      | _ => False
      end
  | _ => False
  end.
Proof.
  intros old new other its img c.
  (* on a layout of records the scan is [irun], which works on the items and reads no byte *)
  rewrite (ScanQuiescentProofs.scan_ilayout c 3 19 [] img (or_introl eq_refl) its 6 16).
  - vm_compute. repeat split; reflexivity.
  - repeat (apply Forall_cons; [apply ScanAcceptsProofs.rec_ok_of_checks; vm_compute; reflexivity|]). apply Forall_nil.
  - intros n [E|[E|[E|[]]]]; discriminate E.
  - reflexivity.
  - vm_compute. reflexivity.
  - cbn. auto.
Qed.

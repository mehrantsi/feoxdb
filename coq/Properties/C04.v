(* C04 -- recovery is idempotent, restartable and never discards a live record.
   Over the abstract device of Model/Device.v: recovery's own repair writes (journal replay =
   re-marking the extents of an active journal, then clearing it) and its post-scan retirements
   (losers, expired winners = a retirement transaction of the ordinary protocol). *)
From Coq Require Import List NArith Bool Lia.
From Feox Require Import Model.Device Proofs.CrashProofs.
From Feox Require Gen.Constants Model.Bytes Model.Codec Model.FreeSpace Model.MetaJournal Model.Recovery Proofs.ScanAcceptsProofs Proofs.ScanQuiescentProofs.
From Feox Require Proofs.ReplayRollbackProofs.
Import ListNotations.
Local Open Scope N_scope.

(* Starting from any disk on which recovery selects an ACTIVE journal and sees no junk outside
   the extents it names (replay_start), with `seen` = what the scan sees:
   - every crash image (any subset / tearing) of the marker writes recovers to the same `seen`;
   - every crash image around the final journal clear recovers to the same `seen`;
   - the completed repair recovers to the same `seen` (idempotent);
   - the repair writes only cells that are markers in `seen`: it touches no live record. *)
Theorem replay_idempotent_restartable :
  forall d c g exts,
  replay_start d c g exts ->
  let seen := wipe exts (cells d) in
  recover d = Some seen /\
  (forall d', crash_image (replay_stage1 d exts) d' -> recover d' = Some seen) /\
  (forall d', crash_image (replay_stage2 d c g exts) d' -> recover d' = Some seen) /\
  recover (replay_done d c g exts) = Some seen /\
  (forall i, In i exts -> (i < length (cells d))%nat -> nth i seen CZero = CMarker).
Proof. exact replay_restartable. Qed.
Check replay_idempotent_restartable :
  forall d c g exts,
  replay_start d c g exts ->
  let seen := wipe exts (cells d) in
  recover d = Some seen /\
  (forall d', crash_image (replay_stage1 d exts) d' -> recover d' = Some seen) /\
  (forall d', crash_image (replay_stage2 d c g exts) d' -> recover d' = Some seen) /\
  recover (replay_done d c g exts) = Some seen /\
  (forall i, In i exts -> (i < length (cells d))%nat -> nth i seen CZero = CMarker) .
Print Assumptions replay_idempotent_restartable.

(* post-scan retirement of losers / superseded generations is an admissible transaction, hence by
   crash_atomic every crash inside it recovers the contents before it or those after it; for a
   retirement the two agree (its cell writes are the wipe, which txn_ok says changes no key's
   newest generation), though no theorem states that ... *)
Theorem loser_retirement_admissible :
  forall (exts : list nat) (c0 : list cell),
  NoDup exts ->
  (forall i, In i exts -> (i < length c0)%nat) ->
  (forall i g, In i exts -> nth i c0 CZero = CGen g ->
     exists j g', ~ In j exts /\ nth j c0 CZero = CGen g' /\ gk g' = gk g /\ gts g < gts g') ->
  txn_ok (mktxn exts (map (fun i => (i, CMarker)) exts)) c0.
Proof. exact retire_ok. Qed.
Check loser_retirement_admissible :
  forall (exts : list nat) (c0 : list cell),
  NoDup exts ->
  (forall i, In i exts -> (i < length c0)%nat) ->
  (forall i g, In i exts -> nth i c0 CZero = CGen g ->
     exists j g', ~ In j exts /\ nth j c0 CZero = CGen g' /\ gk g' = gk g /\ gts g < gts g') ->
  txn_ok (mktxn exts (map (fun i => (i, CMarker)) exts)) c0.
Print Assumptions loser_retirement_admissible.

Theorem crash_inside_retirement_changes_nothing :
  forall s d,
  PInv s -> crash_image (dv s) d ->
  exists seen, recover d = Some seen /\
    ((forall k, contents seen k = before s k) \/ (forall k, contents seen k = after s k)).
Proof. exact crash_atomic. Qed.
Check crash_inside_retirement_changes_nothing :
  forall s d,
  PInv s -> crash_image (dv s) d ->
  exists seen, recover d = Some seen /\
    ((forall k, contents seen k = before s k) \/ (forall k, contents seen k = after s k)) .
Print Assumptions crash_inside_retirement_changes_nothing.

(* ---- at the byte level, files at rest (Model/Recovery.v): open_image, TTL filtering off, on a
   file of a version with tokens whose metadata decodes, whose journal is clear and whose data area
   is any quiescent layout writes nothing, so opening it again -- any number of times -- gives the
   same answer ---- *)
Theorem reopening_a_file_at_rest_changes_nothing :
  forall c img m jgen jslot its n,
  Recovery.c_ro c = false -> Recovery.c_now c = None ->
  (17 <= length img)%nat ->
  let total := N.of_nat (length img) in
  let mb := if MetaJournal.select_meta (Recovery.nth_block img 0) (Recovery.nth_block img (N.to_nat Constants.FEOX_METADATA_BACKUP_BLOCK))
            then Recovery.nth_block img (N.to_nat Constants.FEOX_METADATA_BACKUP_BLOCK) else Recovery.nth_block img 0 in
  Bytes.list_eqb (firstn 8 mb) MetaJournal.SIGNATURE = true -> MetaJournal.decode_meta mb = Some m ->
  Codec.has_token (MetaJournal.m_version m) = true ->
  MetaJournal.decode_journal (Recovery.slot_bytes img 0) (Recovery.slot_bytes img 1) total = Some (jgen, jslot, []) ->
  total * Constants.FEOX_BLOCK_SIZE < FreeSpace.U64 ->
  Forall (ScanQuiescentProofs.item_ok (MetaJournal.m_version m)) its ->
  ScanAcceptsProofs.distinct_keys (ScanQuiescentProofs.recs_of its) ->
  skipn (N.to_nat Constants.FEOX_DATA_START_BLOCK) img =
    ScanQuiescentProofs.ilayout (MetaJournal.m_version m) Constants.FEOX_DATA_START_BLOCK its ->
  ScanQuiescentProofs.reopen c n img = Recovery.open_image c img /\ snd (Recovery.open_image c img) = img.
Proof. exact ScanQuiescentProofs.reopening_a_quiescent_file_changes_nothing. Qed.
Check reopening_a_file_at_rest_changes_nothing :
  forall c img m jgen jslot its n,
  Recovery.c_ro c = false -> Recovery.c_now c = None ->
  (17 <= length img)%nat ->
  let total := N.of_nat (length img) in
  let mb := if MetaJournal.select_meta (Recovery.nth_block img 0) (Recovery.nth_block img (N.to_nat Constants.FEOX_METADATA_BACKUP_BLOCK))
            then Recovery.nth_block img (N.to_nat Constants.FEOX_METADATA_BACKUP_BLOCK) else Recovery.nth_block img 0 in
  Bytes.list_eqb (firstn 8 mb) MetaJournal.SIGNATURE = true -> MetaJournal.decode_meta mb = Some m ->
  Codec.has_token (MetaJournal.m_version m) = true ->
  MetaJournal.decode_journal (Recovery.slot_bytes img 0) (Recovery.slot_bytes img 1) total = Some (jgen, jslot, []) ->
  total * Constants.FEOX_BLOCK_SIZE < FreeSpace.U64 ->
  Forall (ScanQuiescentProofs.item_ok (MetaJournal.m_version m)) its ->
  ScanAcceptsProofs.distinct_keys (ScanQuiescentProofs.recs_of its) ->
  skipn (N.to_nat Constants.FEOX_DATA_START_BLOCK) img =
    ScanQuiescentProofs.ilayout (MetaJournal.m_version m) Constants.FEOX_DATA_START_BLOCK its ->
  ScanQuiescentProofs.reopen c n img = Recovery.open_image c img /\ snd (Recovery.open_image c img) = img.
Print Assumptions reopening_a_file_at_rest_changes_nothing.
(* non-vacuity: a crashed disk with an active journal over a torn cell *)
Example replay_example :
  replay_start (mkdisk (SValid 4 JClear) (SValid 5 (JActive [1%nat])) [CGen (mkgen 7 100 1); CJunk; CMarker]) true 5 [1%nat].
Proof. repeat split; simpl; auto. Qed.

(* ---- the same for a crash inside a write batch (Proofs/ReplayRollbackProofs.v): a file at rest
   whose journal is ACTIVE and names one record's extent.  The first open replays the journal and
   leaves a file at rest behind (C03: crashed_batch_is_rolled_back); opening THAT file again -- any
   number of times -- writes nothing and gives the same answer: its metadata copies are where they
   were, its journal decodes to clear (the CLEAR record of generation + 1 in the other slot wins
   over the ACTIVE one), its data area is a quiescent layout ---- *)

Theorem recovery_from_a_crashed_batch_is_idempotent :
  forall c img m jgen jslot its1 r its2 k,
  Recovery.c_ro c = false -> Recovery.c_now c = None ->
  (17 <= length img)%nat ->
  let total := N.of_nat (length img) in
  let mb := if MetaJournal.select_meta (Recovery.nth_block img 0) (Recovery.nth_block img (N.to_nat Constants.FEOX_METADATA_BACKUP_BLOCK))
            then Recovery.nth_block img (N.to_nat Constants.FEOX_METADATA_BACKUP_BLOCK) else Recovery.nth_block img 0 in
  let v := MetaJournal.m_version m in
  let s := Constants.FEOX_DATA_START_BLOCK + ScanQuiescentProofs.isum v its1 in
  let n := ScanAcceptsProofs.need_of v r in
  Bytes.list_eqb (firstn 8 mb) MetaJournal.SIGNATURE = true -> MetaJournal.decode_meta mb = Some m -> Codec.has_token v = true ->
  MetaJournal.decode_journal (Recovery.slot_bytes img 0) (Recovery.slot_bytes img 1) total = Some (jgen, jslot, [(s, n)]) ->
  jgen < Recovery.U64MAX ->
  total * Constants.FEOX_BLOCK_SIZE < FreeSpace.U64 ->
  Forall (ScanQuiescentProofs.item_ok v) (its1 ++ ScanQuiescentProofs.IRec r :: its2) -> ScanAcceptsProofs.distinct_keys (ScanQuiescentProofs.recs_of (its1 ++ its2)) ->
  skipn (N.to_nat Constants.FEOX_DATA_START_BLOCK) img = ScanQuiescentProofs.ilayout v Constants.FEOX_DATA_START_BLOCK (its1 ++ ScanQuiescentProofs.IRec r :: its2) ->
  let img' := snd (Recovery.open_image c img) in
  ScanQuiescentProofs.reopen c k img' = Recovery.open_image c img' /\ snd (Recovery.open_image c img') = img'.
Proof. exact ReplayRollbackProofs.recovery_from_a_crashed_batch_is_idempotent. Qed.
Check recovery_from_a_crashed_batch_is_idempotent :
  forall c img m jgen jslot its1 r its2 k,
  Recovery.c_ro c = false -> Recovery.c_now c = None ->
  (17 <= length img)%nat ->
  let total := N.of_nat (length img) in
  let mb := if MetaJournal.select_meta (Recovery.nth_block img 0) (Recovery.nth_block img (N.to_nat Constants.FEOX_METADATA_BACKUP_BLOCK))
            then Recovery.nth_block img (N.to_nat Constants.FEOX_METADATA_BACKUP_BLOCK) else Recovery.nth_block img 0 in
  let v := MetaJournal.m_version m in
  let s := Constants.FEOX_DATA_START_BLOCK + ScanQuiescentProofs.isum v its1 in
  let n := ScanAcceptsProofs.need_of v r in
  Bytes.list_eqb (firstn 8 mb) MetaJournal.SIGNATURE = true -> MetaJournal.decode_meta mb = Some m -> Codec.has_token v = true ->
  MetaJournal.decode_journal (Recovery.slot_bytes img 0) (Recovery.slot_bytes img 1) total = Some (jgen, jslot, [(s, n)]) ->
  jgen < Recovery.U64MAX ->
  total * Constants.FEOX_BLOCK_SIZE < FreeSpace.U64 ->
  Forall (ScanQuiescentProofs.item_ok v) (its1 ++ ScanQuiescentProofs.IRec r :: its2) -> ScanAcceptsProofs.distinct_keys (ScanQuiescentProofs.recs_of (its1 ++ its2)) ->
  skipn (N.to_nat Constants.FEOX_DATA_START_BLOCK) img = ScanQuiescentProofs.ilayout v Constants.FEOX_DATA_START_BLOCK (its1 ++ ScanQuiescentProofs.IRec r :: its2) ->
  let img' := snd (Recovery.open_image c img) in
  ScanQuiescentProofs.reopen c k img' = Recovery.open_image c img' /\ snd (Recovery.open_image c img') = img'.
Print Assumptions recovery_from_a_crashed_batch_is_idempotent.
(* non-vacuity: the 20-block file of C03's example a_crashed_batch (free block, a two-block record
   named by an ACTIVE journal record, a one-block record): opened, and the result opened twice more *)
Example a_crashed_batch_reopened :
  let r1 := Codec.mkrec [107; 49] (repeat 7 5000) 11 0 in
  let r2 := Codec.mkrec [107; 50] [1; 2; 3] 12 99 in
  let m := MetaJournal.mkmeta 3 2 5033 (20 * 4096) 4096 0 1 2 4 (repeat 0 48) in
  let z := repeat 0 Codec.BLOCK in
  let j := MetaJournal.encode_journal 5 Constants.JOURNAL_ACTIVE [(17, 2)] in
  let jb := Recovery.chunk_blocks (j ++ Bytes.zeros (3 * Codec.BLOCK - length j)) 3 in
  let img := [MetaJournal.meta_block m] ++ jb ++ [z; z; z; MetaJournal.meta_block m; z; z; z; z; z; z; z; z]
             ++ ScanQuiescentProofs.ilayout 3 16 ([ScanQuiescentProofs.IFree] ++ ScanQuiescentProofs.IRec r1 :: [ScanQuiescentProofs.IRec r2]) in
  let c := Recovery.mkcfg false false None 168 in
  let img' := snd (Recovery.open_image c img) in
  img' <> img /\
  ScanQuiescentProofs.reopen c 2 img' = Recovery.open_image c img' /\ snd (Recovery.open_image c img') = img' /\
  MetaJournal.decode_journal (Recovery.slot_bytes img' 0) (Recovery.slot_bytes img' 1) 20 = Some (6, 1, []).
Proof.
  (* the file meets the premises of the two theorems (each checked on a block or a slot, never on
     the whole image); the conclusions are theirs *)
  intros r1 r2 m z j jb img c img'.
  pose (its1 := [ScanQuiescentProofs.IFree]). pose (its2 := [ScanQuiescentProofs.IRec r2]).
  assert (Hok : Forall (ScanQuiescentProofs.item_ok 3) (its1 ++ ScanQuiescentProofs.IRec r1 :: its2)).
  { apply Forall_cons; [exact I|].
    apply Forall_cons; [|apply Forall_cons; [|apply Forall_nil]]; apply ScanAcceptsProofs.rec_ok_of_checks; vm_compute; reflexivity. }
  assert (Hd : ScanAcceptsProofs.distinct_keys (ScanQuiescentProofs.recs_of (its1 ++ its2))).
  { split; [intros ? []|exact I]. }
  assert (Hlen : (17 <= length img)%nat) by (apply PeanoNat.Nat.leb_le; vm_compute; reflexivity).
  assert (Htot : N.of_nat (length img) = 20) by (vm_compute; reflexivity).
  assert (Hu : N.of_nat (length img) * Constants.FEOX_BLOCK_SIZE < FreeSpace.U64) by (apply N.ltb_lt; vm_compute; reflexivity).
  assert (Hj : MetaJournal.decode_journal (Recovery.slot_bytes img 0) (Recovery.slot_bytes img 1) (N.of_nat (length img))
               = Some (5, 0, [(17, 2)])) by (vm_compute; reflexivity).
  assert (Hg : 5 < Recovery.U64MAX) by (vm_compute; reflexivity).
  set (mb := if MetaJournal.select_meta (Recovery.nth_block img 0) (Recovery.nth_block img (N.to_nat Constants.FEOX_METADATA_BACKUP_BLOCK))
              then Recovery.nth_block img (N.to_nat Constants.FEOX_METADATA_BACKUP_BLOCK) else Recovery.nth_block img 0).
  assert (Hsig : Bytes.list_eqb (firstn 8 mb) MetaJournal.SIGNATURE = true) by (vm_compute; reflexivity).
  assert (Hdec : MetaJournal.decode_meta mb = Some m) by (vm_compute; reflexivity).
  assert (Hlay : skipn (N.to_nat Constants.FEOX_DATA_START_BLOCK) img
                 = ScanQuiescentProofs.ilayout 3 Constants.FEOX_DATA_START_BLOCK (its1 ++ ScanQuiescentProofs.IRec r1 :: its2)) by reflexivity.
  (* [specialize], then [destruct] the hypothesis: [destruct (lemma args)] would search the goal for
     instances of the lemma's conclusion and evaluate the images while doing so *)
  pose proof (ReplayRollbackProofs.crashed_batch_is_rolled_back c img m 5 0 its1 r1 its2 eq_refl eq_refl Hlen) as R.
  pose proof (ReplayRollbackProofs.recovery_from_a_crashed_batch_is_idempotent c img m 5 0 its1 r1 its2 2 eq_refl eq_refl Hlen) as Q.
  cbv zeta in R, Q.
  specialize (R Hsig Hdec eq_refl Hj Hg Hu Hok Hd Hlay). destruct R as (o & im & E & _ & _ & _ & _ & _ & Eq).
  specialize (Q Hsig Hdec eq_refl Hj Hg Hu Hok Hd Hlay). destruct Q as (Q1 & Q2). fold img' in Q1, Q2.
  assert (J : MetaJournal.decode_journal (Recovery.slot_bytes img' 0) (Recovery.slot_bytes img' 1) 20 = Some (6, 1, [])).
  { unfold img'. rewrite E. cbn [snd]. rewrite Eq, <- Htot.
    refine (ReplayRollbackProofs.rolled_back_journal img 5 0 _ _ _ [(17, 2)] _ _ Hg _ Hj); [vm_compute; lia|vm_compute; discriminate|discriminate]. }
  split; [|split; [exact Q1|split; [exact Q2|exact J]]].
  (* the journals of the two files differ *)
  intros D. rewrite D, <- Htot, Hj in J. discriminate J.
Qed.

(* C20 -- the safe API is memory safe under every interleaving (PARTIAL).
   What an executable Gallina model can carry is the ownership and bounds logic of three pieces
   of the crate that handle raw memory themselves: io.rs InFlightBuffers, which hands buffer
   addresses to the kernel; utils/allocator.rs AlignedBuffer, whose safe slices must lie inside
   the allocation; and FeoxAllocator, whose release must match its allocation.  Everything else in
   this property (epoch-managed ordered-index pointers, the absence of data races in unsafe code)
   is runtime behaviour of compiled Rust: it is exercised, not proved, by running the engines of
   the other properties under AddressSanitizer. *)
From Coq Require Import List Arith Bool.
From Feox Require Import Model.InFlight Proofs.InFlightProofs.
From Coq Require Import NArith.
From Feox Require Model.AlignedBuf Proofs.AlignedBufProofs.
From Feox Require Gen.AllocSites Proofs.AllocProofs.
Import ListNotations.

Theorem inflight_invariant_reachable :
  forall evs s, IFInv s -> IFInv (ifrun s evs).
Proof. exact ifrun_IFInv. Qed.
Check inflight_invariant_reachable :
  forall evs s, IFInv s -> IFInv (ifrun s evs) .
Print Assumptions inflight_invariant_reachable.

(* for every order of pushes, submissions, submission failures, completions and the final drop:
   a buffer the kernel may still read from is never freed *)
Theorem kernel_referenced_buffer_is_never_freed :
  forall evs i,
  let s := ifrun ifinit evs in
  nth i (kern s) false = true -> nth i (bufs s) Owned <> Freed.
Proof. exact kernel_referenced_buffer_never_freed. Qed.
Check kernel_referenced_buffer_is_never_freed :
  forall evs i,
  let s := ifrun ifinit evs in
  nth i (kern s) false = true -> nth i (bufs s) Owned <> Freed .
Print Assumptions kernel_referenced_buffer_is_never_freed.

(* and only buffers marked in flight at the drop are kept alive *)
Theorem only_in_flight_buffers_are_leaked :
  forall evs i,
  let s := ifrun ifinit evs in
  nth i (bufs s) Owned = Leaked -> nth i (inflight s) false = true.
Proof. exact leaked_only_if_in_flight. Qed.
Check only_in_flight_buffers_are_leaked :
  forall evs i,
  let s := ifrun ifinit evs in
  nth i (bufs s) Owned = Leaked -> nth i (inflight s) false = true .
Print Assumptions only_in_flight_buffers_are_leaked.

(* aligned allocations (utils/allocator.rs AlignedBuffer, a public safe type): for every requested
   capacity and every sequence of safe calls, the slice handed out by as_slice / as_mut_slice lies
   inside the allocation, the advertised capacity covers the request, and the allocation is a
   whole number of blocks *)
Theorem aligned_buffer_slices_stay_inside_the_allocation :
  forall capacity ops,
  let b := AlignedBuf.ab_run capacity ops in
  (AlignedBuf.ab_len b <= AlignedBuf.ab_alloc b /\ capacity <= AlignedBuf.ab_cap b /\
   AlignedBuf.ab_cap b <= AlignedBuf.ab_alloc b /\ AlignedBuf.ab_alloc b mod AlignedBuf.BLOCK = 0)%N.
Proof. exact AlignedBufProofs.safe_slices_stay_inside_the_allocation. Qed.
Check aligned_buffer_slices_stay_inside_the_allocation :
  forall capacity ops,
  let b := AlignedBuf.ab_run capacity ops in
  (AlignedBuf.ab_len b <= AlignedBuf.ab_alloc b /\ capacity <= AlignedBuf.ab_cap b /\
   AlignedBuf.ab_cap b <= AlignedBuf.ab_alloc b /\ AlignedBuf.ab_alloc b mod AlignedBuf.BLOCK = 0)%N.
Print Assumptions aligned_buffer_slices_stay_inside_the_allocation.

Theorem oversized_set_len_is_refused :
  forall b n, (AlignedBuf.ab_cap b < n)%N -> AlignedBuf.ab_step b (AlignedBuf.ASetLen n) = (b, AlignedBuf.APanic).
Proof. exact AlignedBufProofs.oversized_set_len_is_refused. Qed.
Check oversized_set_len_is_refused :
  forall b n, (AlignedBuf.ab_cap b < n)%N -> AlignedBuf.ab_step b (AlignedBuf.ASetLen n) = (b, AlignedBuf.APanic) .
Print Assumptions oversized_set_len_is_refused.

(* FeoxAllocator (public): Gen/AllocSites.v is regenerated from src/utils/allocator.rs on every run.
   For every size a block is released by the path that produced it (Layout path or mmap path),
   with the Layout alignment it was allocated with and exactly the length that was mapped; the
   mapping covers the request, consists of whole pages and wastes less than one page.  (usize
   overflow of size + PAGE_MASK is outside: such a request cannot be mapped.) *)
Theorem allocator_releases_exactly_what_it_allocated :
  forall size : N,
    AllocSites.alloc_small size = AllocSites.dealloc_small size /\
    AllocSites.alloc_small_align = AllocSites.dealloc_small_align /\
    AllocSites.dealloc_large_len size = AllocSites.alloc_large_len size /\
    (size <= AllocSites.alloc_large_len size)%N /\
    (AllocSites.alloc_large_len size < size + AllocSites.A_PAGE_SIZE)%N /\
    (AllocSites.alloc_large_len size mod AllocSites.A_PAGE_SIZE = 0)%N.
Proof. exact AllocProofs.release_matches_allocation. Qed.
Check allocator_releases_exactly_what_it_allocated :
  forall size : N,
    AllocSites.alloc_small size = AllocSites.dealloc_small size /\
    AllocSites.alloc_small_align = AllocSites.dealloc_small_align /\
    AllocSites.dealloc_large_len size = AllocSites.alloc_large_len size /\
    (size <= AllocSites.alloc_large_len size)%N /\
    (AllocSites.alloc_large_len size < size + AllocSites.A_PAGE_SIZE)%N /\
    (AllocSites.alloc_large_len size mod AllocSites.A_PAGE_SIZE = 0)%N.
Print Assumptions allocator_releases_exactly_what_it_allocated.
Example abandoned_submission_is_kept_alive :
  let s := ifrun ifinit [Push; Push; MarkInFlight 0; SqPushOk 0; MarkInFlight 1; SqPushOk 1; Complete 1; DropAll] in
  bufs s = [Leaked; Freed] /\ kern s = [true; false].
Proof. vm_compute. split; reflexivity. Qed.
Example allocator_classes :
  AllocSites.alloc_small 8192 = true /\ AllocSites.alloc_small 8193 = false /\
  AllocSites.alloc_large_len 8193 = 12288%N /\ AllocSites.alloc_large_len 65536 = 65536%N.
Proof. vm_compute. repeat split; reflexivity. Qed.

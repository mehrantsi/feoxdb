(* C10 -- the device file follows the documented v1/v2/v3 layout.
   Codec theorems about the documented byte layout (Model/Bytes, Crc32c, Codec). The whole-file
   reader used as the "independent reader" is Model.Recovery.open_image (read-only mode). *)
From Coq Require Import List NArith Bool Lia.
From Feox Require Import Gen.Constants Model.Bytes Model.Crc32c Model.Codec Proofs.CodecProofs.
From Feox Require Import Model.FreeSpace Model.Recovery Proofs.ScanAcceptsProofs Proofs.ScanQuiescentProofs.
From Feox Require Proofs.FreeSpaceProofs.
From Feox Require Import Model.MetaJournal Proofs.MetaJournalProofs Proofs.JournalLayoutProofs.
Import ListNotations.
Local Open Scope N_scope.

(* little-endian fields round-trip for every width and value *)
Theorem le_roundtrip : forall k n, n < 256 ^ N.of_nat k -> le_num (le_bytes k n) = n.
Proof. exact le_num_le_bytes. Qed.
Check le_roundtrip : forall k n, n < 256 ^ N.of_nat k -> le_num (le_bytes k n) = n.
Print Assumptions le_roundtrip.

Theorem le_roundtrip_bytes : forall l, Forall (fun b => b < 256) l -> le_bytes (length l) (le_num l) = l.
Proof. exact le_bytes_le_num. Qed.
Check le_roundtrip_bytes : forall l, Forall (fun b => b < 256) l -> le_bytes (length l) (le_num l) = l.
Print Assumptions le_roundtrip_bytes.

(* CRC-32C: incremental updates equal one pass; the lookup table is the bitwise definition;
   known vector "123456789" -> 0xE3069283 *)
Theorem crc_chain : forall seed a b, crc32c (crc32c seed a) b = crc32c seed (a ++ b).
Proof. exact crc32c_chain. Qed.
Check crc_chain : forall seed a b, crc32c (crc32c seed a) b = crc32c seed (a ++ b).
Print Assumptions crc_chain.

Theorem crc_table_is_bitwise : forall c b, crc_byte TABLE c b = crc_byte_bitwise c b.
Proof. exact crc_byte_table. Qed.
Check crc_table_is_bitwise : forall c b, crc_byte TABLE c b = crc_byte_bitwise c b.
Print Assumptions crc_table_is_bitwise.

Example crc_known_vector : crc32c 0 [49;50;51;52;53;54;55;56;57] = 3808858755.
Proof. vm_compute. reflexivity. Qed.

(* record layout: parsing a serialized record (whole extent, or its head block alone when the
   header fits in one block) returns exactly key, value length, timestamp and expiry, for every
   key (up to the u16 length field), every value, every timestamp/expiry, v1 and v2/v3 layouts *)
Theorem parse_serialize_roundtrip : forall version r,
  N.of_nat (length (r_key r)) < 65536 -> N.of_nat (length (r_value r)) < 2 ^ 64 ->
  r_ts r < 2 ^ 64 -> r_exp r < 2 ^ 64 ->
  parse_head version (serialize version r) =
  Some (Some (r_key r, N.of_nat (length (r_value r)), r_ts r, if has_expiry version then r_exp r else 0)).
Proof. exact parse_serialize. Qed.
Check parse_serialize_roundtrip : forall version r,
  N.of_nat (length (r_key r)) < 65536 -> N.of_nat (length (r_value r)) < 2 ^ 64 ->
  r_ts r < 2 ^ 64 -> r_exp r < 2 ^ 64 ->
  parse_head version (serialize version r) =
  Some (Some (r_key r, N.of_nat (length (r_value r)), r_ts r, if has_expiry version then r_exp r else 0)).
Print Assumptions parse_serialize_roundtrip.

Theorem parse_head_block_roundtrip : forall version r,
  N.of_nat (length (r_key r)) < 65536 -> N.of_nat (length (r_value r)) < 2 ^ 64 ->
  r_ts r < 2 ^ 64 -> r_exp r < 2 ^ 64 ->
  (6 + length (r_key r) + 16 + (if has_expiry version then 8 else 0) <= BLOCK)%nat ->
  parse_head version (firstn BLOCK (serialize version r)) =
  Some (Some (r_key r, N.of_nat (length (r_value r)), r_ts r, if has_expiry version then r_exp r else 0)).
Proof. exact parse_head_block. Qed.
Check parse_head_block_roundtrip : forall version r,
  N.of_nat (length (r_key r)) < 65536 -> N.of_nat (length (r_value r)) < 2 ^ 64 ->
  r_ts r < 2 ^ 64 -> r_exp r < 2 ^ 64 ->
  (6 + length (r_key r) + 16 + (if has_expiry version then 8 else 0) <= BLOCK)%nat ->
  parse_head version (firstn BLOCK (serialize version r)) =
  Some (Some (r_key r, N.of_nat (length (r_value r)), r_ts r, if has_expiry version then r_exp r else 0)).
Print Assumptions parse_head_block_roundtrip.

(* the value bytes sit exactly at the header size (so a TTL-only rewrite of the header keeps them) *)
Theorem value_at_value_offset : forall version r,
  sub (serialize version r)
      (6 + length (r_key r) + 16 + (if has_expiry version then 8 else 0)) (length (r_value r)) = r_value r.
Proof. exact value_at_offset. Qed.
Check value_at_value_offset : forall version r,
  sub (serialize version r)
      (6 + length (r_key r) + 16 + (if has_expiry version then 8 else 0)) (length (r_value r)) = r_value r.
Print Assumptions value_at_value_offset.

(* tokens: 16 bits, never zero; the stamped token verifies, stamping is idempotent *)
Theorem token_range : forall sector data, record_token sector data < 65536 /\ record_token sector data <> 0.
Proof. intros. auto using record_token_lt, record_token_nonzero. Qed.
Check token_range : forall sector data, record_token sector data < 65536 /\ record_token sector data <> 0.
Print Assumptions token_range.

Theorem stamped_token_verifies : forall version sector d,
  header_range_ok version d = true ->
  u16_at (stamp version sector d) 2 = record_token sector (stamp version sector d) /\
  stamp version sector (stamp version sector d) = stamp version sector d /\
  u16_at (stamp version sector d) 2 <> 0.
Proof. exact stamp_self_consistent. Qed.
Check stamped_token_verifies : forall version sector d,
  header_range_ok version d = true ->
  u16_at (stamp version sector d) 2 = record_token sector (stamp version sector d) /\
  stamp version sector (stamp version sector d) = stamp version sector d /\
  u16_at (stamp version sector d) 2 <> 0.
Print Assumptions stamped_token_verifies.

(* retirement markers: every marker block written for (sector, remaining) is recognised as a
   complete marker for exactly that sector and remaining count; markers, record heads and zero
   blocks are pairwise distinguishable *)
Theorem marker_block_roundtrip : forall sector remaining, remaining < 2 ^ 64 ->
  is_complete_marker (marker_block sector remaining RETIREMENT_COMPLETE) sector remaining = true.
Proof. exact marker_roundtrip. Qed.
Check marker_block_roundtrip : forall sector remaining, remaining < 2 ^ 64 ->
  is_complete_marker (marker_block sector remaining RETIREMENT_COMPLETE) sector remaining = true.
Print Assumptions marker_block_roundtrip.

Theorem marker_record_zero_disjoint : forall version r s rem st k, (8 <= k)%nat ->
  firstn 8 (serialize version r) <> DELETED_TAG /\
  u16_at (marker_block s rem st) 0 <> SECTOR_MARKER /\
  firstn 8 (zeros k) <> DELETED_TAG /\ u16_at (zeros k) 0 <> SECTOR_MARKER.
Proof.
  intros. auto using record_is_not_marker, marker_not_record, zero_block_is_neither.
Qed.
Check marker_record_zero_disjoint : forall version r s rem st k, (8 <= k)%nat ->
  firstn 8 (serialize version r) <> DELETED_TAG /\
  u16_at (marker_block s rem st) 0 <> SECTOR_MARKER /\
  firstn 8 (zeros k) <> DELETED_TAG /\ u16_at (zeros k) 0 <> SECTOR_MARKER.
Print Assumptions marker_record_zero_disjoint.

(* ---- what the write path puts on the device, the recovery scan reads back (Codec <-> Recovery) ----
   One iteration of the scan loop at the head of an extent image produced by encode_extent
   (serialize, pad, stamp the sector- and content-bound token; v1, v2 and v3 alike) accepts it,
   advances exactly over the extent and indexes exactly the record's key, timestamp, expiry, value
   length and sector. *)
Theorem scan_accepts_what_the_write_path_encodes : forall version sector r,
  0 < N.of_nat (length (r_key r)) ->
  (6 + length (r_key r) + 16 + (if has_expiry version then 8 else 0) <= BLOCK)%nat ->
  0 < N.of_nat (length (r_value r)) -> N.of_nat (length (r_value r)) <= MAX_VALUE_SIZE ->
  r_ts r < 2 ^ 64 -> r_exp r < 2 ^ 64 ->
  forall c total st jl rest',
  N.of_nat (length (r_key r)) <= MAX_KEY_SIZE ->
  sector + need_of version r <= total ->
  forall st4,
  (c_ro c = false \/ jl = []) ->
  idx_find (r_key r) (rs_idx st) = None ->
  (if rs_last_end st <? sector then fs_release st (rs_last_end st) (sector - rs_last_end st) else Ok st) = Ok st4 ->
  scan_step c version total sector
    (chunk_blocks (encode_extent version sector r) (N.to_nat (need_of version r)) ++ rest') st jl =
  Ok (Advance (sector + need_of version r) (index_one c version sector r st4) jl).
Proof.
  intros version sector r K0 Hf V0 Vm Ts Ex c total st jl rest' _ Hin st4 Hmode Hnew Hgap.
  rewrite (scan_step_on_encoded version sector r (rec_ok_intro version r K0 Hf V0 Vm Ts Ex) c total st jl rest' Hmode Hin).
  rewrite (index_record_fresh c version sector r st Hnew). unfold RecoveryProofs.gap. rewrite Hgap. reflexivity.
Qed.
Check scan_accepts_what_the_write_path_encodes : forall version sector r,
  0 < N.of_nat (length (r_key r)) ->
  (6 + length (r_key r) + 16 + (if has_expiry version then 8 else 0) <= BLOCK)%nat ->
  0 < N.of_nat (length (r_value r)) -> N.of_nat (length (r_value r)) <= MAX_VALUE_SIZE ->
  r_ts r < 2 ^ 64 -> r_exp r < 2 ^ 64 ->
  forall c total st jl rest',
  N.of_nat (length (r_key r)) <= MAX_KEY_SIZE ->
  sector + need_of version r <= total ->
  forall st4,
  (c_ro c = false \/ jl = []) ->
  idx_find (r_key r) (rs_idx st) = None ->
  (if rs_last_end st <? sector then fs_release st (rs_last_end st) (sector - rs_last_end st) else Ok st) = Ok st4 ->
  scan_step c version total sector
    (chunk_blocks (encode_extent version sector r) (N.to_nat (need_of version r)) ++ rest') st jl =
  Ok (Advance (sector + need_of version r) (index_one c version sector r st4) jl).
Print Assumptions scan_accepts_what_the_write_path_encodes.

(* ... and the value: the entry the scan makes for an encoded extent reads back exactly the
   record's value bytes (the extent is re-read and checked against the entry first) *)
Theorem indexed_entry_reads_back_its_value : forall version sector r,
  0 < N.of_nat (length (r_key r)) ->
  (6 + length (r_key r) + 16 + (if has_expiry version then 8 else 0) <= BLOCK)%nat ->
  0 < N.of_nat (length (r_value r)) -> N.of_nat (length (r_value r)) <= MAX_VALUE_SIZE ->
  r_ts r < 2 ^ 64 -> r_exp r < 2 ^ 64 ->
  forall img rest0,
  skipn (N.to_nat sector) img = chunk_blocks (encode_extent version sector r) (N.to_nat (need_of version r)) ++ rest0 ->
  read_value version img
    (mkentry (r_key r) (r_ts r) (if has_expiry version then r_exp r else 0) (N.of_nat (length (r_value r))) sector)
  = Some (r_value r).
Proof.
  intros version sector r K0 Hf V0 Vm Ts Ex. exact (read_value_returns_the_value version sector r (rec_ok_intro version r K0 Hf V0 Vm Ts Ex)).
Qed.
Check indexed_entry_reads_back_its_value : forall version sector r,
  0 < N.of_nat (length (r_key r)) ->
  (6 + length (r_key r) + 16 + (if has_expiry version then 8 else 0) <= BLOCK)%nat ->
  0 < N.of_nat (length (r_value r)) -> N.of_nat (length (r_value r)) <= MAX_VALUE_SIZE ->
  r_ts r < 2 ^ 64 -> r_exp r < 2 ^ 64 ->
  forall img rest0,
  skipn (N.to_nat sector) img = chunk_blocks (encode_extent version sector r) (N.to_nat (need_of version r)) ++ rest0 ->
  read_value version img
    (mkentry (r_key r) (r_ts r) (if has_expiry version then r_exp r else 0) (N.of_nat (length (r_value r))) sector)
  = Some (r_value r).
Print Assumptions indexed_entry_reads_back_its_value.

(* newest timestamp wins, whichever generation the scan meets first: an older generation of an
   indexed key leaves the index as it is and is queued for retirement ... *)
Theorem scan_retires_an_older_generation : forall version sector r,
  0 < N.of_nat (length (r_key r)) ->
  (6 + length (r_key r) + 16 + (if has_expiry version then 8 else 0) <= BLOCK)%nat ->
  0 < N.of_nat (length (r_value r)) -> N.of_nat (length (r_value r)) <= MAX_VALUE_SIZE ->
  r_ts r < 2 ^ 64 -> r_exp r < 2 ^ 64 ->
  forall c total st jl rest',
  N.of_nat (length (r_key r)) <= MAX_KEY_SIZE ->
  sector + need_of version r <= total ->
  forall ex,
  c_ro c = false ->
  idx_find (r_key r) (rs_idx st) = Some ex -> r_ts r < e_ts ex ->
  scan_step c version total sector
    (chunk_blocks (encode_extent version sector r) (N.to_nat (need_of version r)) ++ rest') st jl =
  Ok (Advance (sector + need_of version r)
        (mkrs (rs_idx st) (rs_fs st) (rs_count st) (rs_mem st) (rs_disk st)
              ((sector, need_of version r) :: rs_retired st) (rs_last_end st) (rs_ambiguous st)) jl).
Proof.
  intros version sector r K0 Hf V0 Vm Ts Ex c total st jl rest' _ Hin ex Hrw Hex Hlt.
  rewrite (scan_step_on_encoded version sector r (rec_ok_intro version r K0 Hf V0 Vm Ts Ex) c total st jl rest' (or_introl Hrw) Hin).
  rewrite (index_record_older c version sector r st ex Hex Hlt). unfold push_retired. rewrite Hrw. reflexivity.
Qed.
Check scan_retires_an_older_generation : forall version sector r,
  0 < N.of_nat (length (r_key r)) ->
  (6 + length (r_key r) + 16 + (if has_expiry version then 8 else 0) <= BLOCK)%nat ->
  0 < N.of_nat (length (r_value r)) -> N.of_nat (length (r_value r)) <= MAX_VALUE_SIZE ->
  r_ts r < 2 ^ 64 -> r_exp r < 2 ^ 64 ->
  forall c total st jl rest',
  N.of_nat (length (r_key r)) <= MAX_KEY_SIZE ->
  sector + need_of version r <= total ->
  forall ex,
  c_ro c = false ->
  idx_find (r_key r) (rs_idx st) = Some ex -> r_ts r < e_ts ex ->
  scan_step c version total sector
    (chunk_blocks (encode_extent version sector r) (N.to_nat (need_of version r)) ++ rest') st jl =
  Ok (Advance (sector + need_of version r)
        (mkrs (rs_idx st) (rs_fs st) (rs_count st) (rs_mem st) (rs_disk st)
              ((sector, need_of version r) :: rs_retired st) (rs_last_end st) (rs_ambiguous st)) jl).
Print Assumptions scan_retires_an_older_generation.

(* ... and a generation at least as new replaces the indexed one (whose extent is released and
   queued for retirement); the number of keys does not change *)
Theorem scan_replaces_by_a_newer_generation : forall version sector r,
  0 < N.of_nat (length (r_key r)) ->
  (6 + length (r_key r) + 16 + (if has_expiry version then 8 else 0) <= BLOCK)%nat ->
  0 < N.of_nat (length (r_value r)) -> N.of_nat (length (r_value r)) <= MAX_VALUE_SIZE ->
  r_ts r < 2 ^ 64 -> r_exp r < 2 ^ 64 ->
  forall c total st jl rest',
  N.of_nat (length (r_key r)) <= MAX_KEY_SIZE ->
  sector + need_of version r <= total ->
  forall ex st1 st4,
  c_ro c = false ->
  idx_find (r_key r) (rs_idx st) = Some ex -> e_ts ex <= r_ts r ->
  let exn := extent_blocks version (N.of_nat (length (e_key ex))) (e_vlen ex) in
  fs_release st (e_sector ex) exn = Ok st1 ->
  let st3 := mkrs (rs_idx st1) (rs_fs st1) (rs_count st1)
                  (wsub (rs_mem st1) (record_size c (N.of_nat (length (e_key ex))) (e_vlen ex)))
                  (wsub (rs_disk st1) (exn * FEOX_BLOCK_SIZE))
                  ((e_sector ex, exn) :: rs_retired st1) (rs_last_end st1) (rs_ambiguous st1) in
  (if rs_last_end st3 <? sector then fs_release st3 (rs_last_end st3) (sector - rs_last_end st3) else Ok st3) = Ok st4 ->
  exists st', scan_step c version total sector
                (chunk_blocks (encode_extent version sector r) (N.to_nat (need_of version r)) ++ rest') st jl =
              Ok (Advance (sector + need_of version r) st' jl) /\
    idx_find (r_key r) (rs_idx st') =
      Some (mkentry (r_key r) (r_ts r) (if has_expiry version then r_exp r else 0) (N.of_nat (length (r_value r))) sector) /\
    rs_count st' = rs_count st4 /\ rs_last_end st' = sector + need_of version r.
Proof.
  intros version sector r K0 Hf V0 Vm Ts Ex c total st jl rest' _ Hin ex st1 st4 Hrw Hex Hge exn H1 st3 H4.
  rewrite (scan_step_on_encoded version sector r (rec_ok_intro version r K0 Hf V0 Vm Ts Ex) c total st jl rest' (or_introl Hrw) Hin).
  rewrite (index_record_newer c version sector r st ex Hex Hge). fold exn. rewrite H1. cbn [bind].
  assert (D : displaced c version ex st1 = st3) by (unfold displaced, push_retired; rewrite Hrw; reflexivity).
  rewrite D. unfold RecoveryProofs.gap. rewrite H4.
  eexists. split; [reflexivity|]. cbn [reindex_one index_one rs_idx rs_count rs_last_end]. rewrite idx_find_upsert. cbn [e_key].
  rewrite BytesProofs.list_eqb_refl. repeat split.
Qed.
Check scan_replaces_by_a_newer_generation : forall version sector r,
  0 < N.of_nat (length (r_key r)) ->
  (6 + length (r_key r) + 16 + (if has_expiry version then 8 else 0) <= BLOCK)%nat ->
  0 < N.of_nat (length (r_value r)) -> N.of_nat (length (r_value r)) <= MAX_VALUE_SIZE ->
  r_ts r < 2 ^ 64 -> r_exp r < 2 ^ 64 ->
  forall c total st jl rest',
  N.of_nat (length (r_key r)) <= MAX_KEY_SIZE ->
  sector + need_of version r <= total ->
  forall ex st1 st4,
  c_ro c = false ->
  idx_find (r_key r) (rs_idx st) = Some ex -> e_ts ex <= r_ts r ->
  let exn := extent_blocks version (N.of_nat (length (e_key ex))) (e_vlen ex) in
  fs_release st (e_sector ex) exn = Ok st1 ->
  let st3 := mkrs (rs_idx st1) (rs_fs st1) (rs_count st1)
                  (wsub (rs_mem st1) (record_size c (N.of_nat (length (e_key ex))) (e_vlen ex)))
                  (wsub (rs_disk st1) (exn * FEOX_BLOCK_SIZE))
                  ((e_sector ex, exn) :: rs_retired st1) (rs_last_end st1) (rs_ambiguous st1) in
  (if rs_last_end st3 <? sector then fs_release st3 (rs_last_end st3) (sector - rs_last_end st3) else Ok st3) = Ok st4 ->
  exists st', scan_step c version total sector
                (chunk_blocks (encode_extent version sector r) (N.to_nat (need_of version r)) ++ rest') st jl =
              Ok (Advance (sector + need_of version r) st' jl) /\
    idx_find (r_key r) (rs_idx st') =
      Some (mkentry (r_key r) (r_ts r) (if has_expiry version then r_exp r else 0) (N.of_nat (length (r_value r))) sector) /\
    rs_count st' = rs_count st4 /\ rs_last_end st' = sector + need_of version r.
Print Assumptions scan_replaces_by_a_newer_generation.

(* per-block retirement markers: a completed run written for (sector, n) -- n blocks counting down,
   each with its sector-bound token -- is stepped over as a whole and is not retired again;
   free (zero) blocks are stepped over one at a time; neither touches the index *)
Theorem scan_skips_a_complete_marker_run : forall c version total sector n st jl rest',
  (c_ro c = false \/ jl = []) -> has_token version = true ->
  0 < n -> sector + n <= total -> total <= U64MAX ->
  scan_step c version total sector (marker_run sector n (N.to_nat n) ++ rest') st jl = Ok (Advance (sector + n) st jl).
Proof. exact scan_step_skips_a_complete_marker_run. Qed.
Check scan_skips_a_complete_marker_run : forall c version total sector n st jl rest',
  (c_ro c = false \/ jl = []) -> has_token version = true ->
  0 < n -> sector + n <= total -> total <= U64MAX ->
  scan_step c version total sector (marker_run sector n (N.to_nat n) ++ rest') st jl = Ok (Advance (sector + n) st jl).
Print Assumptions scan_skips_a_complete_marker_run.

Theorem scan_skips_a_zero_block : forall c version total sector st jl rest',
  (c_ro c = false \/ jl = []) ->
  scan_step c version total sector (zeros BLOCK :: rest') st jl = Ok (Advance (sector + 1) st jl).
Proof. exact scan_step_skips_a_zero_block. Qed.
Check scan_skips_a_zero_block : forall c version total sector st jl rest',
  (c_ro c = false \/ jl = []) ->
  scan_step c version total sector (zeros BLOCK :: rest') st jl = Ok (Advance (sector + 1) st jl).
Print Assumptions scan_skips_a_zero_block.

(* hence a data area packed with the encoded extents of records with pairwise distinct keys is
   scanned to exactly those records: the scan ends without error, and every record laid out is in
   the index with its timestamp, expiry and value length *)
Theorem scan_recovers_a_packed_data_area : forall c version total jl img,
  c_ro c = false ->
  forall rs fuel sector st,
  Forall (rec_ok version) rs -> distinct_keys rs ->
  (forall r, In r rs -> idx_find (r_key r) (rs_idx st) = None) ->
  rs_last_end st = sector ->
  skipn (N.to_nat sector) img = layout version sector rs ->
  total = sector + blocks_of version rs ->
  (length rs < fuel)%nat ->
  scan fuel c version total img sector st jl = Ok (index_all c version sector rs st).
Proof. exact ScanAcceptsProofs.scan_recovers_a_packed_data_area. Qed.
Check scan_recovers_a_packed_data_area : forall c version total jl img,
  c_ro c = false ->
  forall rs fuel sector st,
  Forall (rec_ok version) rs -> distinct_keys rs ->
  (forall r, In r rs -> idx_find (r_key r) (rs_idx st) = None) ->
  rs_last_end st = sector ->
  skipn (N.to_nat sector) img = layout version sector rs ->
  total = sector + blocks_of version rs ->
  (length rs < fuel)%nat ->
  scan fuel c version total img sector st jl = Ok (index_all c version sector rs st).
Print Assumptions scan_recovers_a_packed_data_area.

Theorem every_laid_out_record_is_indexed : forall c version rs sector st r,
  distinct_keys rs -> In r rs ->
  exists s, idx_find (r_key r) (rs_idx (index_all c version sector rs st)) =
            Some (mkentry (r_key r) (r_ts r) (if has_expiry version then r_exp r else 0) (N.of_nat (length (r_value r))) s).
Proof. exact ScanAcceptsProofs.every_laid_out_record_is_indexed. Qed.
Check every_laid_out_record_is_indexed : forall c version rs sector st r,
  distinct_keys rs -> In r rs ->
  exists s, idx_find (r_key r) (rs_idx (index_all c version sector rs st)) =
            Some (mkentry (r_key r) (r_ts r) (if has_expiry version then r_exp r else 0) (N.of_nat (length (r_value r))) s).
Print Assumptions every_laid_out_record_is_indexed.

(* ---- any quiescent data area: live records with pairwise distinct keys, completed marker runs and
   free blocks in any order (v3).  The scan ends without error; the index holds every record with its
   timestamp, expiry and value length and nothing else is added (the count grows by the number of
   records, entries of other keys stay); nothing is queued for retirement; and the free-space manager
   the scan builds holds, up to the end of the last record, exactly the blocks no record covers ---- *)
Theorem scan_reads_any_quiescent_data_area : forall c version total jl img,
  (c_ro c = false \/ jl = []) -> has_token version = true -> total <= U64MAX ->
  forall its fuel sector st,
  Forall (item_ok version) its -> distinct_keys (recs_of its) ->
  (forall r, In r (recs_of its) -> idx_find (r_key r) (rs_idx st) = None) ->
  SInv total sector st ->
  skipn (N.to_nat sector) img = ilayout version sector its ->
  total = sector + isum version its ->
  (length its < fuel)%nat ->
  exists st',
    scan fuel c version total img sector st jl = Ok st' /\
    SInv total total st' /\ rs_last_end st <= rs_last_end st' /\
    (forall r, In r (recs_of its) -> exists s, idx_find (r_key r) (rs_idx st') = Some (entry_of version r s)) /\
    (forall k e, idx_find k (rs_idx st) = Some e -> (forall r, In r (recs_of its) -> list_eqb (r_key r) k = false) ->
                 idx_find k (rs_idx st') = Some e) /\
    rs_count st' = rs_count st + N.of_nat (length (recs_of its)) /\
    rs_retired st' = rs_retired st /\
    (forall b, FreeSpaceProofs.free (rs_fs st') b <->
               FreeSpaceProofs.free (rs_fs st) b \/ (rs_last_end st <= b < rs_last_end st' /\ ~ covered version sector its b)) /\
    (forall b, rs_last_end st' <= b -> ~ covered version sector its b).
Proof.
  intros c version total jl img Hmode Htok Hmax its fuel sector st Hok Hd Hfresh SI Himg Htot Hfuel.
  rewrite (scan_ilayout c version total jl img Hmode its fuel sector st Hok (fun _ _ => conj Htok Hmax) Himg Htot Hfuel).
  exact (irun_reads_a_quiescent_data_area c version total its sector st Hok Hd Hfresh SI Htot).
Qed.
Check scan_reads_any_quiescent_data_area : forall c version total jl img,
  (c_ro c = false \/ jl = []) -> has_token version = true -> total <= U64MAX ->
  forall its fuel sector st,
  Forall (item_ok version) its -> distinct_keys (recs_of its) ->
  (forall r, In r (recs_of its) -> idx_find (r_key r) (rs_idx st) = None) ->
  SInv total sector st ->
  skipn (N.to_nat sector) img = ilayout version sector its ->
  total = sector + isum version its ->
  (length its < fuel)%nat ->
  exists st',
    scan fuel c version total img sector st jl = Ok st' /\
    SInv total total st' /\ rs_last_end st <= rs_last_end st' /\
    (forall r, In r (recs_of its) -> exists s, idx_find (r_key r) (rs_idx st') = Some (entry_of version r s)) /\
    (forall k e, idx_find k (rs_idx st) = Some e -> (forall r, In r (recs_of its) -> list_eqb (r_key r) k = false) ->
                 idx_find k (rs_idx st') = Some e) /\
    rs_count st' = rs_count st + N.of_nat (length (recs_of its)) /\
    rs_retired st' = rs_retired st /\
    (forall b, FreeSpaceProofs.free (rs_fs st') b <->
               FreeSpaceProofs.free (rs_fs st) b \/ (rs_last_end st <= b < rs_last_end st' /\ ~ covered version sector its b)) /\
    (forall b, rs_last_end st' <= b -> ~ covered version sector its b).
Print Assumptions scan_reads_any_quiescent_data_area.

(* from the state open_image starts with, including the release of the tail after the scan: every
   block of the data area is free exactly when no live record's extent covers it *)
Theorem quiescent_data_area_is_read_and_partitioned : forall c version total jl img,
  (c_ro c = false \/ jl = []) -> has_token version = true -> total <= U64MAX ->
  forall its st0 fuel,
  (length its < fuel)%nat ->
  rs_fs st0 = mkfs [] (total * FEOX_BLOCK_SIZE) 0 0 -> rs_last_end st0 = FEOX_DATA_START_BLOCK -> rs_idx st0 = [] ->
  total * FEOX_BLOCK_SIZE < U64 ->
  Forall (item_ok version) its -> distinct_keys (recs_of its) ->
  skipn (N.to_nat FEOX_DATA_START_BLOCK) img = ilayout version FEOX_DATA_START_BLOCK its ->
  total = FEOX_DATA_START_BLOCK + isum version its -> 0 < isum version its ->
  exists st' st'',
    scan fuel c version total img FEOX_DATA_START_BLOCK st0 jl = Ok st' /\
    (if rs_last_end st' <? total then fs_release st' (rs_last_end st') (total - rs_last_end st') else Ok st') = Ok st'' /\
    (forall r, In r (recs_of its) -> exists s, idx_find (r_key r) (rs_idx st'') = Some (entry_of version r s)) /\
    rs_count st'' = rs_count st0 + N.of_nat (length (recs_of its)) /\
    rs_retired st' = rs_retired st0 /\ rs_retired st'' = rs_retired st0 /\
    (forall b, FEOX_DATA_START_BLOCK <= b < total ->
               (FreeSpaceProofs.free (rs_fs st'') b <-> ~ covered version FEOX_DATA_START_BLOCK its b)).
Proof. exact quiescent_data_area_is_partitioned. Qed.
Check quiescent_data_area_is_read_and_partitioned : forall c version total jl img,
  (c_ro c = false \/ jl = []) -> has_token version = true -> total <= U64MAX ->
  forall its st0 fuel,
  (length its < fuel)%nat ->
  rs_fs st0 = mkfs [] (total * FEOX_BLOCK_SIZE) 0 0 -> rs_last_end st0 = FEOX_DATA_START_BLOCK -> rs_idx st0 = [] ->
  total * FEOX_BLOCK_SIZE < U64 ->
  Forall (item_ok version) its -> distinct_keys (recs_of its) ->
  skipn (N.to_nat FEOX_DATA_START_BLOCK) img = ilayout version FEOX_DATA_START_BLOCK its ->
  total = FEOX_DATA_START_BLOCK + isum version its -> 0 < isum version its ->
  exists st' st'',
    scan fuel c version total img FEOX_DATA_START_BLOCK st0 jl = Ok st' /\
    (if rs_last_end st' <? total then fs_release st' (rs_last_end st') (total - rs_last_end st') else Ok st') = Ok st'' /\
    (forall r, In r (recs_of its) -> exists s, idx_find (r_key r) (rs_idx st'') = Some (entry_of version r s)) /\
    rs_count st'' = rs_count st0 + N.of_nat (length (recs_of its)) /\
    rs_retired st' = rs_retired st0 /\ rs_retired st'' = rs_retired st0 /\
    (forall b, FEOX_DATA_START_BLOCK <= b < total ->
               (FreeSpaceProofs.free (rs_fs st'') b <-> ~ covered version FEOX_DATA_START_BLOCK its b)).
Print Assumptions quiescent_data_area_is_read_and_partitioned.

(* ---- the whole file.  Metadata: what Metadata::encode writes (fields, FM3C tag, CRC-32C and its
   complement) Metadata::from_bytes reads back field for field; a journal never written decodes to
   "clear" ---- *)
Theorem metadata_roundtrip : forall m, meta_ok m -> decode_meta (meta_block m) = Some m.
Proof. exact decode_encode_meta. Qed.
Check metadata_roundtrip : forall m, meta_ok m -> decode_meta (meta_block m) = Some m.
Print Assumptions metadata_roundtrip.

Theorem never_written_journal_decodes_clear : forall s0 s1 total, all_zero s0 = true -> all_zero s1 = true -> decode_journal s0 s1 total = Some (0, 1, []).
Proof. exact never_written_journal_is_clear. Qed.
Check never_written_journal_decodes_clear : forall s0 s1 total, all_zero s0 = true -> all_zero s1 = true -> decode_journal s0 s1 total = Some (0, 1, []).
Print Assumptions never_written_journal_decodes_clear.

(* the journal of a file at rest: the CLEAR record the encoder writes (magic, version, generation,
   state, count, CRC-32C over the image with both checksum fields zeroed, and its complement) is
   read back by the slot decoder whatever the rest of the slot still holds *)
Theorem clear_journal_record_roundtrip : forall g rest total, 0 < g -> g < 2 ^ 64 -> decode_slot (encode_journal g JOURNAL_CLEAR [] ++ rest) total = Some (g, []).
Proof. exact clear_journal_slot_roundtrip. Qed.
Check clear_journal_record_roundtrip : forall g rest total, 0 < g -> g < 2 ^ 64 -> decode_slot (encode_journal g JOURNAL_CLEAR [] ++ rest) total = Some (g, []).
Print Assumptions clear_journal_record_roundtrip.

(* any journal record: CLEAR, or ACTIVE naming up to 1024 valid, non-overlapping extents -- the slot
   decoder returns the generation and exactly the extents the encoder was given *)
Theorem journal_record_roundtrip : forall g state exts rest total,
  0 < g -> g < 2 ^ 64 ->
  (state = JOURNAL_CLEAR /\ exts = []) \/ (state = JOURNAL_ACTIVE /\ exts <> []) ->
  N.of_nat (length exts) <= ALLOCATION_JOURNAL_MAX_ENTRIES ->
  Forall (ext_valid total) exts -> no_overlap_sorted (sort_by_start exts) = true ->
  decode_slot (encode_journal g state exts ++ rest) total = Some (g, exts).
Proof. exact MetaJournalProofs.journal_record_roundtrip. Qed.
Check journal_record_roundtrip : forall g state exts rest total,
  0 < g -> g < 2 ^ 64 ->
  (state = JOURNAL_CLEAR /\ exts = []) \/ (state = JOURNAL_ACTIVE /\ exts <> []) ->
  N.of_nat (length exts) <= ALLOCATION_JOURNAL_MAX_ENTRIES ->
  Forall (ext_valid total) exts -> no_overlap_sorted (sort_by_start exts) = true ->
  decode_slot (encode_journal g state exts ++ rest) total = Some (g, exts).
Print Assumptions journal_record_roundtrip.

(* the two journal slots lie between the metadata copies *)
Theorem journal_slots_are_where_the_layout_says : forall slot,
  slot < ALLOCATION_JOURNAL_SLOTS ->
  let first := ALLOCATION_JOURNAL_START_BLOCK + slot * ALLOCATION_JOURNAL_SLOT_BLOCKS in
  FEOX_METADATA_BLOCK < first /\ first + ALLOCATION_JOURNAL_SLOT_BLOCKS <= FEOX_METADATA_BACKUP_BLOCK /\
  FEOX_METADATA_BACKUP_BLOCK < FEOX_DATA_START_BLOCK /\
  JOURNAL_SLOT_SIZE = ALLOCATION_JOURNAL_SLOT_BLOCKS * FEOX_BLOCK_SIZE /\
  ALLOCATION_JOURNAL_BLOCKS = ALLOCATION_JOURNAL_SLOTS * ALLOCATION_JOURNAL_SLOT_BLOCKS.
Proof. exact JournalLayoutProofs.journal_slots_lie_between_the_metadata_copies. Qed.
Check journal_slots_are_where_the_layout_says : forall slot,
  slot < ALLOCATION_JOURNAL_SLOTS ->
  let first := ALLOCATION_JOURNAL_START_BLOCK + slot * ALLOCATION_JOURNAL_SLOT_BLOCKS in
  FEOX_METADATA_BLOCK < first /\ first + ALLOCATION_JOURNAL_SLOT_BLOCKS <= FEOX_METADATA_BACKUP_BLOCK /\
  FEOX_METADATA_BACKUP_BLOCK < FEOX_DATA_START_BLOCK /\
  JOURNAL_SLOT_SIZE = ALLOCATION_JOURNAL_SLOT_BLOCKS * FEOX_BLOCK_SIZE /\
  ALLOCATION_JOURNAL_BLOCKS = ALLOCATION_JOURNAL_SLOTS * ALLOCATION_JOURNAL_SLOT_BLOCKS.
Print Assumptions journal_slots_are_where_the_layout_says.

(* an image of at most ALLOCATION_JOURNAL_MAX_ENTRIES extents is at most
   ALLOCATION_JOURNAL_SLOT_BLOCKS blocks long ... *)
Theorem journal_image_fits_its_slot : forall g st exts,
  N.of_nat (length exts) <= ALLOCATION_JOURNAL_MAX_ENTRIES ->
  (length (encode_journal g st exts) <= N.to_nat ALLOCATION_JOURNAL_SLOT_BLOCKS * BLOCK)%nat /\
  (Nat.div (length (encode_journal g st exts)) BLOCK <= N.to_nat ALLOCATION_JOURNAL_SLOT_BLOCKS)%nat.
Proof. exact JournalLayoutProofs.journal_image_fits_its_slot. Qed.
Check journal_image_fits_its_slot : forall g st exts,
  N.of_nat (length exts) <= ALLOCATION_JOURNAL_MAX_ENTRIES ->
  (length (encode_journal g st exts) <= N.to_nat ALLOCATION_JOURNAL_SLOT_BLOCKS * BLOCK)%nat /\
  (Nat.div (length (encode_journal g st exts)) BLOCK <= N.to_nat ALLOCATION_JOURNAL_SLOT_BLOCKS)%nat.
Print Assumptions journal_image_fits_its_slot.

(* ... so writing it changes no block of the other slot, of either metadata copy or of the data
   area, nor the length of the file *)
Theorem journal_write_stays_in_its_slot : forall img slot g st exts k,
  slot < ALLOCATION_JOURNAL_SLOTS -> N.of_nat (length exts) <= ALLOCATION_JOURNAL_MAX_ENTRIES ->
  (N.to_nat FEOX_METADATA_BACKUP_BLOCK <= length img)%nat ->
  let first := N.to_nat (ALLOCATION_JOURNAL_START_BLOCK + slot * ALLOCATION_JOURNAL_SLOT_BLOCKS) in
  length (write_journal img slot g st exts) = length img /\
  ((k < first \/ first + N.to_nat ALLOCATION_JOURNAL_SLOT_BLOCKS <= k)%nat ->
   nth k (write_journal img slot g st exts) [] = nth k img []).
Proof. exact JournalLayoutProofs.journal_write_stays_in_its_slot. Qed.
Check journal_write_stays_in_its_slot : forall img slot g st exts k,
  slot < ALLOCATION_JOURNAL_SLOTS -> N.of_nat (length exts) <= ALLOCATION_JOURNAL_MAX_ENTRIES ->
  (N.to_nat FEOX_METADATA_BACKUP_BLOCK <= length img)%nat ->
  let first := N.to_nat (ALLOCATION_JOURNAL_START_BLOCK + slot * ALLOCATION_JOURNAL_SLOT_BLOCKS) in
  length (write_journal img slot g st exts) = length img /\
  ((k < first \/ first + N.to_nat ALLOCATION_JOURNAL_SLOT_BLOCKS <= k)%nat ->
   nth k (write_journal img slot g st exts) [] = nth k img []).
Print Assumptions journal_write_stays_in_its_slot.

(* a journal whose slots hold CLEAR records (one of them, the other never written; or both) decodes
   to "clear" -- the hypothesis of open_reads_any_quiescent_file *)
Theorem journal_with_a_clear_record_decodes_clear : forall g rest0 s1 total, 0 < g -> g < 2 ^ 64 -> all_zero s1 = true ->
  decode_journal (encode_journal g JOURNAL_CLEAR [] ++ rest0) s1 total = Some (g, 0, []).
Proof. exact MetaJournalProofs.journal_with_a_clear_record_decodes_clear. Qed.
Check journal_with_a_clear_record_decodes_clear : forall g rest0 s1 total, 0 < g -> g < 2 ^ 64 -> all_zero s1 = true ->
  decode_journal (encode_journal g JOURNAL_CLEAR [] ++ rest0) s1 total = Some (g, 0, []).
Print Assumptions journal_with_a_clear_record_decodes_clear.

Theorem journal_with_two_clear_records_decodes_clear : forall g0 g1 rest0 rest1 total, 0 < g0 -> g0 < 2 ^ 64 -> 0 < g1 -> g1 < 2 ^ 64 ->
  exists g slot, decode_journal (encode_journal g0 JOURNAL_CLEAR [] ++ rest0) (encode_journal g1 JOURNAL_CLEAR [] ++ rest1) total
                 = Some (g, slot, []).
Proof. exact MetaJournalProofs.journal_with_two_clear_records_decodes_clear. Qed.
Check journal_with_two_clear_records_decodes_clear : forall g0 g1 rest0 rest1 total, 0 < g0 -> g0 < 2 ^ 64 -> 0 < g1 -> g1 < 2 ^ 64 ->
  exists g slot, decode_journal (encode_journal g0 JOURNAL_CLEAR [] ++ rest0) (encode_journal g1 JOURNAL_CLEAR [] ++ rest1) total
                 = Some (g, slot, []).
Print Assumptions journal_with_two_clear_records_decodes_clear.

(* open_image (read-write, TTL off) on a file whose selected metadata copy decodes to a version-3
   metadata, whose journal decodes to clear and whose data area is any quiescent layout: it opens,
   leaves the file byte for byte as it is, and reports every record (with its timestamp, expiry and
   value length), as many keys as there are records, and a free-space manager that holds exactly the
   blocks no record covers *)
Theorem open_reads_any_quiescent_file : forall c img m jgen jslot its,
  c_ro c = false -> c_now c = None ->
  (17 <= length img)%nat ->
  let total := N.of_nat (length img) in
  let mb := if select_meta (nth_block img 0) (nth_block img (N.to_nat FEOX_METADATA_BACKUP_BLOCK))
            then nth_block img (N.to_nat FEOX_METADATA_BACKUP_BLOCK) else nth_block img 0 in
  list_eqb (firstn 8 mb) SIGNATURE = true -> decode_meta mb = Some m -> has_token (m_version m) = true ->
  decode_journal (slot_bytes img 0) (slot_bytes img 1) total = Some (jgen, jslot, []) ->
  total * FEOX_BLOCK_SIZE < U64 ->
  Forall (item_ok (m_version m)) its -> distinct_keys (recs_of its) ->
  skipn (N.to_nat FEOX_DATA_START_BLOCK) img = ilayout (m_version m) FEOX_DATA_START_BLOCK its ->
  exists o,
    open_image c img = (Ok o, img) /\
    o_version o = m_version m /\ o_img o = img /\
    (forall r, In r (recs_of its) -> exists s, idx_find (r_key r) (o_idx o) = Some (entry_of (m_version m) r s)) /\
    o_count o = N.of_nat (length (recs_of its)) /\
    (forall b, FEOX_DATA_START_BLOCK <= b < total ->
               (FreeSpaceProofs.free (o_fs o) b <-> ~ covered (m_version m) FEOX_DATA_START_BLOCK its b)).
Proof. intros c img m jgen jslot its _. apply open_reads_a_quiescent_file_in_either_mode. Qed.
Check open_reads_any_quiescent_file : forall c img m jgen jslot its,
  c_ro c = false -> c_now c = None ->
  (17 <= length img)%nat ->
  let total := N.of_nat (length img) in
  let mb := if select_meta (nth_block img 0) (nth_block img (N.to_nat FEOX_METADATA_BACKUP_BLOCK))
            then nth_block img (N.to_nat FEOX_METADATA_BACKUP_BLOCK) else nth_block img 0 in
  list_eqb (firstn 8 mb) SIGNATURE = true -> decode_meta mb = Some m -> has_token (m_version m) = true ->
  decode_journal (slot_bytes img 0) (slot_bytes img 1) total = Some (jgen, jslot, []) ->
  total * FEOX_BLOCK_SIZE < U64 ->
  Forall (item_ok (m_version m)) its -> distinct_keys (recs_of its) ->
  skipn (N.to_nat FEOX_DATA_START_BLOCK) img = ilayout (m_version m) FEOX_DATA_START_BLOCK its ->
  exists o,
    open_image c img = (Ok o, img) /\
    o_version o = m_version m /\ o_img o = img /\
    (forall r, In r (recs_of its) -> exists s, idx_find (r_key r) (o_idx o) = Some (entry_of (m_version m) r s)) /\
    o_count o = N.of_nat (length (recs_of its)) /\
    (forall b, FEOX_DATA_START_BLOCK <= b < total ->
               (FreeSpaceProofs.free (o_fs o) b <-> ~ covered (m_version m) FEOX_DATA_START_BLOCK its b)).
Print Assumptions open_reads_any_quiescent_file.

(* the same for a read-only open (the mode in which the model serves as the "independent reader" of
   the flushed-file checks, and the mode of the migration source): whether read-write or read-only,
   TTL filtering off, the open of a quiescent version-3 file writes nothing and reports the same
   records, count and partition *)
Theorem the_independent_reader_reads_any_quiescent_file : forall c img m jgen jslot its,
  c_now c = None ->
  (17 <= length img)%nat ->
  let total := N.of_nat (length img) in
  let mb := if select_meta (nth_block img 0) (nth_block img (N.to_nat FEOX_METADATA_BACKUP_BLOCK))
            then nth_block img (N.to_nat FEOX_METADATA_BACKUP_BLOCK) else nth_block img 0 in
  list_eqb (firstn 8 mb) SIGNATURE = true -> decode_meta mb = Some m -> has_token (m_version m) = true ->
  decode_journal (slot_bytes img 0) (slot_bytes img 1) total = Some (jgen, jslot, []) ->
  total * FEOX_BLOCK_SIZE < U64 ->
  Forall (item_ok (m_version m)) its -> distinct_keys (recs_of its) ->
  skipn (N.to_nat FEOX_DATA_START_BLOCK) img = ilayout (m_version m) FEOX_DATA_START_BLOCK its ->
  exists o,
    open_image c img = (Ok o, img) /\
    o_version o = m_version m /\ o_img o = img /\
    (forall r, In r (recs_of its) -> exists s, idx_find (r_key r) (o_idx o) = Some (entry_of (m_version m) r s)) /\
    o_count o = N.of_nat (length (recs_of its)) /\
    (forall b, FEOX_DATA_START_BLOCK <= b < total ->
               (FreeSpaceProofs.free (o_fs o) b <-> ~ covered (m_version m) FEOX_DATA_START_BLOCK its b)).
Proof. exact open_reads_a_quiescent_file_in_either_mode. Qed.
Check the_independent_reader_reads_any_quiescent_file : forall c img m jgen jslot its,
  c_now c = None ->
  (17 <= length img)%nat ->
  let total := N.of_nat (length img) in
  let mb := if select_meta (nth_block img 0) (nth_block img (N.to_nat FEOX_METADATA_BACKUP_BLOCK))
            then nth_block img (N.to_nat FEOX_METADATA_BACKUP_BLOCK) else nth_block img 0 in
  list_eqb (firstn 8 mb) SIGNATURE = true -> decode_meta mb = Some m -> has_token (m_version m) = true ->
  decode_journal (slot_bytes img 0) (slot_bytes img 1) total = Some (jgen, jslot, []) ->
  total * FEOX_BLOCK_SIZE < U64 ->
  Forall (item_ok (m_version m)) its -> distinct_keys (recs_of its) ->
  skipn (N.to_nat FEOX_DATA_START_BLOCK) img = ilayout (m_version m) FEOX_DATA_START_BLOCK its ->
  exists o,
    open_image c img = (Ok o, img) /\
    o_version o = m_version m /\ o_img o = img /\
    (forall r, In r (recs_of its) -> exists s, idx_find (r_key r) (o_idx o) = Some (entry_of (m_version m) r s)) /\
    o_count o = N.of_nat (length (recs_of its)) /\
    (forall b, FEOX_DATA_START_BLOCK <= b < total ->
               (FreeSpaceProofs.free (o_fs o) b <-> ~ covered (m_version m) FEOX_DATA_START_BLOCK its b)).
Print Assumptions the_independent_reader_reads_any_quiescent_file.

(* non-vacuity: two records (one of them spanning two blocks) on a v3 layout *)
Example packed_area_is_scanned :
  let r1 := mkrec [107; 49] (repeat 7 5000) 11 0 in
  let r2 := mkrec [107; 50] [1; 2; 3] 12 99 in
  let img := repeat (repeat 0 BLOCK) 16 ++ layout 3 16 [r1; r2] in
  match initialize (19 * 4096) with
  | FOk f =>
      match scan 5 (mkcfg false false None 168) 3 19 img 16 (mkrs [] f 0 0 0 [] 16 0) [] with
      | Ok st => map (fun e => (e_key e, e_ts e, e_exp e, e_vlen e, e_sector e)) (rs_idx st)
                 = [([107; 49], 11, 0, 5000, 16); ([107; 50], 12, 99, 3, 18)]
      | _ => False
      end
  | _ => False
  end.
Proof.
  intros r1 r2 img. set (i := initialize (19 * 4096)). vm_compute in (value of i). subst i. cbv beta iota.
  (* the scan of a packed area is [index_all], which reads no byte of the image *)
  rewrite (scan_recovers_a_packed_data_area (mkcfg false false None 168) 3 19 [] img eq_refl [r1; r2] 5 16).
  - vm_compute. reflexivity.
  - apply Forall_cons; [|apply Forall_cons; [|apply Forall_nil]]; apply rec_ok_of_checks; vm_compute; reflexivity.
  - split; [intros ? [<-|[]]; reflexivity|]. split; [intros ? []|exact I].
  - reflexivity.
  - reflexivity.
  - reflexivity.
  - vm_compute. reflexivity.
  - cbn. lia.
Qed.

(* non-vacuity for the general layout: free block, record, completed marker run of two, record *)
Example quiescent_area_is_scanned :
  let r1 := mkrec [107; 49] (repeat 7 5000) 11 0 in
  let r2 := mkrec [107; 50] [1; 2; 3] 12 99 in
  let its := [IFree; IRec r1; IMark 2; IRec r2] in
  let img := repeat (repeat 0 BLOCK) 16 ++ ilayout 3 16 its in
  match scan 5 (mkcfg false false None 168) 3 22 img 16 (mkrs [] (mkfs [] (22 * 4096) 0 0) 0 0 0 [] 16 0) [] with
  | Ok st => map (fun e => (e_key e, e_sector e)) (rs_idx st) = [([107; 49], 17); ([107; 50], 21)]
             /\ runs (rs_fs st) = [(16, 1); (19, 2)] /\ rs_retired st = []
  | _ => False
  end.
Proof.
  intros r1 r2 its img.
  (* on a quiescent layout the scan is [irun], which works on the items and reads no byte *)
  rewrite (scan_ilayout (mkcfg false false None 168) 3 22 [] img (or_introl eq_refl) its 5 16).
  - vm_compute. repeat split; reflexivity.
  - apply Forall_cons; [exact I|]. apply Forall_cons; [apply rec_ok_of_checks; vm_compute; reflexivity|].
    apply Forall_cons; [reflexivity|]. apply Forall_cons; [apply rec_ok_of_checks; vm_compute; reflexivity|apply Forall_nil].
  - intros n _. split; [reflexivity|vm_compute; discriminate].
  - reflexivity.
  - vm_compute. reflexivity.
  - cbn. lia.
Qed.

(* non-vacuity for the whole file: both metadata copies written by encode_meta, a journal never
   written, and the layout above -- open_image returns the two records and the two gaps *)
Example quiescent_file_is_opened :
  let r1 := mkrec [107; 49] (repeat 7 5000) 11 0 in
  let r2 := mkrec [107; 50] [1; 2; 3] 12 99 in
  let its := [IFree; IRec r1; IMark 2; IRec r2] in
  let m := mkmeta 3 2 5033 (22 * 4096) 4096 0 1 2 4 (repeat 0 48) in
  let z := repeat 0 BLOCK in
  let img := [meta_block m; z; z; z; z; z; z; meta_block m; z; z; z; z; z; z; z; z] ++ ilayout 3 16 its in
  meta_ok m /\
  match open_image (mkcfg false false None 168) img with
  | (Ok o, img') => img' = img /\ o_version o = 3 /\
                    map (fun e => (e_key e, e_ts e, e_exp e, e_vlen e, e_sector e)) (o_idx o)
                      = [([107; 49], 11, 0, 5000, 17); ([107; 50], 12, 99, 3, 21)] /\
                    runs (o_fs o) = [(16, 1); (19, 2)] /\ o_count o = 2
  | _ => False
  end.
Proof.
  intros r1 r2 its m z img.
  split; [constructor; vm_compute; repeat split; try reflexivity; try discriminate|].
  (* the file meets the premises of the theorem (checked on a block or a slot at a time); what the
     open returns is then [irun] and the release of the tail, which read no byte of the image *)
  assert (Hok : Forall (item_ok 3) its).
  { apply Forall_cons; [exact I|]. apply Forall_cons; [apply rec_ok_of_checks; vm_compute; reflexivity|].
    apply Forall_cons; [reflexivity|]. apply Forall_cons; [apply rec_ok_of_checks; vm_compute; reflexivity|apply Forall_nil]. }
  assert (Hd : distinct_keys (recs_of its)).
  { split; [intros ? [<-|[]]; reflexivity|]. split; [intros ? []|exact I]. }
  set (mb := if select_meta (nth_block img 0) (nth_block img (N.to_nat FEOX_METADATA_BACKUP_BLOCK))
             then nth_block img (N.to_nat FEOX_METADATA_BACKUP_BLOCK) else nth_block img 0).
  assert (Hsig : list_eqb (firstn 8 mb) SIGNATURE = true) by (vm_compute; reflexivity).
  assert (Hdec : decode_meta mb = Some m) by (vm_compute; reflexivity).
  assert (Hlen : (17 <= length img)%nat) by (apply PeanoNat.Nat.leb_le; vm_compute; reflexivity).
  assert (Htot : N.of_nat (@length block img) = 22) by (vm_compute; reflexivity).
  assert (Hj : decode_journal (slot_bytes img 0) (slot_bytes img 1) (N.of_nat (length img)) = Some (0, 1, []))
    by (vm_compute; reflexivity).
  assert (Hu : N.of_nat (length img) * FEOX_BLOCK_SIZE < U64) by (apply N.ltb_lt; vm_compute; reflexivity).
  pose proof (open_of_a_quiescent_file (mkcfg false false None 168) img m 0 1 its eq_refl Hlen) as O. cbv zeta in O.
  specialize (O Hsig Hdec (fun _ _ => eq_refl) Hj Hu Hok Hd eq_refl). destruct O as (st' & f & R & G & E & _).
  rewrite E. rewrite Htot in R, G.
  vm_compute in R. injection R as <-. vm_compute in G. injection G as <-.
  repeat split; reflexivity.
Qed.

(* C09 -- I/O failures are reported, contained and never destroy durable data.
   First over the abstract device (Model/Device.v): what holds at EVERY state of the protocol, so
   in particular at the state in which a device call fails.  Then over models of the
   failure-handling code itself (Model/FailPath.v, Model/FailBatches.v: scrub of the touched
   extents through the journal, quarantine, poisoning, requeueing, error propagation) for every
   choice of failing device calls, and of the retirement gate (Model/Gate.v).  That the real store
   behaves as these models say is checked by execution: the Coq monitor must accept the faulted
   device histories and the fault engine compares the store with the models call by call. *)
From Coq Require Import List NArith Bool.
From Feox Require Import Model.Device Proofs.CrashProofs.
From Feox Require Model.FreeSpace Proofs.FreeSpaceProofs Model.FailPath Proofs.FailPathProofs Model.Gate Proofs.GateProofs Model.FailBatches Proofs.FailBatchesProofs.
Import ListNotations.
Local Open Scope N_scope.

(* a failed write-before or fsync changes nothing on the device *)
Theorem failed_call_changes_no_crash_image :
  forall v d, crash_image v d <-> crash_image (mkdev (durable v) (pending v)) d.
Proof. exact failed_call_keeps_crash_images. Qed.
Check failed_call_changes_no_crash_image :
  forall v d, crash_image v d <-> crash_image (mkdev (durable v) (pending v)) d .
Print Assumptions failed_call_changes_no_crash_image.

(* whatever part of a journaled batch reached the device, the journaled extents contain it *)
Theorem failed_batch_is_contained :
  forall exts ws d d',
  (forall i c, In (i, c) ws -> In i exts) ->
  crash_from d (map (fun ic => WCell (fst ic) (snd ic)) ws) d' ->
  s0 d' = s0 d /\ s1 d' = s1 d /\ wipe exts (cells d') = wipe exts (cells d).
Proof. exact crash_from_cells. Qed.
Check failed_batch_is_contained :
  forall exts ws d d',
  (forall i c, In (i, c) ws -> In i exts) ->
  crash_from d (map (fun ic => WCell (fst ic) (snd ic)) ws) d' ->
  s0 d' = s0 d /\ s1 d' = s1 d /\ wipe exts (cells d') = wipe exts (cells d) .
Print Assumptions failed_batch_is_contained.

(* at the state where the failure happens (any reachable state) recovering the device as it stands,
   or after any crash, yields the contents before or after the transaction in flight *)
Theorem failure_never_destroys_durable_data :
  forall s d,
  PInv s -> crash_image (dv s) d ->
  exists seen, recover d = Some seen /\
    ((forall k, contents seen k = before s k) \/ (forall k, contents seen k = after s k)).
Proof. exact crash_atomic. Qed.
Check failure_never_destroys_durable_data :
  forall s d,
  PInv s -> crash_image (dv s) d ->
  exists seen, recover d = Some seen /\
    ((forall k, contents seen k = before s k) \/ (forall k, contents seen k = after s k)) .
Print Assumptions failure_never_destroys_durable_data.

(* ... never older than the last acknowledgement *)
Theorem acknowledged_survives_failures :
  forall s_ack s d,
  PInv s_ack -> ph s_ack = Idle -> reach s_ack s -> crash_image (dv s) d ->
  exists s_i seen, reach s_ack s_i /\ ph s_i = Idle /\ recover d = Some seen /\
    forall k, contents seen k = contents (cells (durable (dv s_i))) k.
Proof. exact ack_durable. Qed.
Check acknowledged_survives_failures :
  forall s_ack s d,
  PInv s_ack -> ph s_ack = Idle -> reach s_ack s -> crash_image (dv s) d ->
  exists s_i seen, reach s_ack s_i /\ ph s_i = Idle /\ recover d = Some seen /\
    forall k, contents seen k = contents (cells (durable (dv s_i))) k .
Print Assumptions acknowledged_survives_failures.

(* the scrub of a failed batch (journal ACTIVE(exts) again, markers, clear): from the failure to its
   end every crash image, and the device as it stands after each fsync, recovers the cells the
   batch found -- the contents before the batch *)
Theorem scrub_of_a_failed_batch_is_restartable :
  forall d c g exts ws,
  replay_start d c g exts -> (forall i cl, In (i, cl) ws -> In i exts) ->
  let seen := wipe exts (cells d) in
  let d1 := scrub_synced d c g exts ws in
  (forall d', crash_image (scrub_stage0 d ws) d' -> recover d' = Some seen) /\
  (forall d', crash_image (scrub_stage1 d c g exts ws) d' -> recover d' = Some seen) /\
  recover d1 = Some seen /\
  (forall d', crash_image (replay_stage1 d1 exts) d' -> recover d' = Some seen) /\
  (forall d', crash_image (replay_stage2 d1 (negb c) (g + 1) exts) d' -> recover d' = Some seen) /\
  recover (replay_done d1 (negb c) (g + 1) exts) = Some seen.
Proof. exact scrub_preserves_contents. Qed.
Check scrub_of_a_failed_batch_is_restartable :
  forall d c g exts ws,
  replay_start d c g exts -> (forall i cl, In (i, cl) ws -> In i exts) ->
  let seen := wipe exts (cells d) in
  let d1 := scrub_synced d c g exts ws in
  (forall d', crash_image (scrub_stage0 d ws) d' -> recover d' = Some seen) /\
  (forall d', crash_image (scrub_stage1 d c g exts ws) d' -> recover d' = Some seen) /\
  recover d1 = Some seen /\
  (forall d', crash_image (replay_stage1 d1 exts) d' -> recover d' = Some seen) /\
  (forall d', crash_image (replay_stage2 d1 (negb c) (g + 1) exts) d' -> recover d' = Some seen) /\
  recover (replay_done d1 (negb c) (g + 1) exts) = Some seen .
Print Assumptions scrub_of_a_failed_batch_is_restartable.

(* ---- the failure-handling code itself (Model/FailPath.v: process_write_batch,
   failed_batch_outcome, cleanup_failed_allocations, release_scrubbed_allocations,
   release_allocations, quarantine, poison, over the real allocator model); every fault oracle,
   i.e. every choice of failing device calls, every sequence of inserts and flushes ---- *)

(* a flush answers Ok only when the device is not poisoned and every entry queued before it has
   been published; whatever it answers, no entry is lost (all published, or all still queued in
   order); a poisoned device never answers Ok again; a quarantined reservation stays with its entry *)
Theorem flush_is_honest_under_any_failures :
  forall fault d f cs,
  d < FreeSpace.U64 -> FreeSpace.initialize d = FreeSpace.FOk f ->
  let st := FailPathProofs.fcalls fault (FailPath.finit f) cs in
  forall st' r, FailPath.flush fault st = (st', r) ->
  (r = FailPath.ROk -> FailPath.f_poison st' = false /\ FailPath.f_queue st' = []) /\
  ((FailPath.f_queue st' = [] /\ exists pub, FailPath.f_durable st' = pub ++ FailPath.f_durable st /\
      map fst pub = map FailPath.pe_id (FailPath.f_queue st)) \/
   (r <> FailPath.ROk /\ FailPath.f_durable st' = FailPath.f_durable st /\
      map FailPath.pe_id (FailPath.f_queue st') = map FailPath.pe_id (FailPath.f_queue st))) /\
  (FailPath.f_poison st = true -> FailPath.f_poison st' = true /\ r <> FailPath.ROk) /\
  (forall e, In e (FailPath.f_queue st) -> FailPath.pe_quar e = true -> FailPath.f_queue st' <> [] -> In e (FailPath.f_queue st')).
Proof.
  intros fault d f cs Hd Hi st st' r H.
  exact (proj2 (FailPathProofs.flush_spec fault [] st st' r (FailPathProofs.fcalls_reach fault d f cs Hd Hi) H)).
Qed.
Check flush_is_honest_under_any_failures :
  forall fault d f cs,
  d < FreeSpace.U64 -> FreeSpace.initialize d = FreeSpace.FOk f ->
  let st := FailPathProofs.fcalls fault (FailPath.finit f) cs in
  forall st' r, FailPath.flush fault st = (st', r) ->
  (r = FailPath.ROk -> FailPath.f_poison st' = false /\ FailPath.f_queue st' = []) /\
  ((FailPath.f_queue st' = [] /\ exists pub, FailPath.f_durable st' = pub ++ FailPath.f_durable st /\
      map fst pub = map FailPath.pe_id (FailPath.f_queue st)) \/
   (r <> FailPath.ROk /\ FailPath.f_durable st' = FailPath.f_durable st /\
      map FailPath.pe_id (FailPath.f_queue st') = map FailPath.pe_id (FailPath.f_queue st))) /\
  (FailPath.f_poison st = true -> FailPath.f_poison st' = true /\ r <> FailPath.ROk) /\
  (forall e, In e (FailPath.f_queue st) -> FailPath.pe_quar e = true -> FailPath.f_queue st' <> [] -> In e (FailPath.f_queue st')) .
Print Assumptions flush_is_honest_under_any_failures.

(* extents that may hold bytes of a failed batch and have not been scrubbed are never free, hence
   never handed to another record: a reservation is given back only clean or scrubbed *)
Theorem unscrubbed_extents_are_never_free :
  forall fault d f cs x b,
  d < FreeSpace.U64 -> FreeSpace.initialize d = FreeSpace.FOk f ->
  let st := FailPathProofs.fcalls fault (FailPath.finit f) cs in
  In x (FailPath.f_maydata st) -> FailPathProofs.blk_in b x -> ~ FreeSpaceProofs.free (FailPath.f_fs st) b.
Proof. exact FailPathProofs.unscrubbed_extents_are_never_free. Qed.
Check unscrubbed_extents_are_never_free :
  forall fault d f cs x b,
  d < FreeSpace.U64 -> FreeSpace.initialize d = FreeSpace.FOk f ->
  let st := FailPathProofs.fcalls fault (FailPath.finit f) cs in
  In x (FailPath.f_maydata st) -> FailPathProofs.blk_in b x -> ~ FreeSpaceProofs.free (FailPath.f_fs st) b .
Print Assumptions unscrubbed_extents_are_never_free.

(* the same with deletes of published records and their retirement (journal, markers, clear, one
   release per group), including the reclaim-and-retry of a pass the allocator refused: Ok only when
   not poisoned, the queue empty and every pending retirement done; entries are published all or
   none; the extents waiting for retirement are given back all at once or not at all *)
Theorem flush_with_deletes_is_honest :
  forall fault d f cs,
  d < FreeSpace.U64 -> FreeSpace.initialize d = FreeSpace.FOk f ->
  let rs := FailPathProofs.rcalls fault (FailPath.rinit f) cs in
  forall rs' r, FailPath.rflush fault rs = (rs', r) ->
  (r = FailPath.ROk -> FailPath.f_queue (FailPath.r_core rs') = [] /\ FailPath.r_pending rs' = [] /\ FailPath.f_poison (FailPath.r_core rs') = false) /\
  ((FailPath.f_queue (FailPath.r_core rs') = [] /\ exists pub, FailPath.f_durable (FailPath.r_core rs') = pub ++ FailPath.f_durable (FailPath.r_core rs) /\
      map fst pub = map FailPath.pe_id (FailPath.f_queue (FailPath.r_core rs))) \/
   (FailPath.f_durable (FailPath.r_core rs') = FailPath.f_durable (FailPath.r_core rs) /\
      map FailPath.pe_id (FailPath.f_queue (FailPath.r_core rs')) = map FailPath.pe_id (FailPath.f_queue (FailPath.r_core rs)))) /\
  (FailPath.r_pending rs' = FailPath.r_pending rs \/ FailPath.r_pending rs' = []) /\
  (FailPath.f_poison (FailPath.r_core rs) = true -> FailPath.f_poison (FailPath.r_core rs') = true /\ r <> FailPath.ROk).
Proof. exact FailPathProofs.flush_with_deletes_is_honest. Qed.
Check flush_with_deletes_is_honest :
  forall fault d f cs,
  d < FreeSpace.U64 -> FreeSpace.initialize d = FreeSpace.FOk f ->
  let rs := FailPathProofs.rcalls fault (FailPath.rinit f) cs in
  forall rs' r, FailPath.rflush fault rs = (rs', r) ->
  (r = FailPath.ROk -> FailPath.f_queue (FailPath.r_core rs') = [] /\ FailPath.r_pending rs' = [] /\ FailPath.f_poison (FailPath.r_core rs') = false) /\
  ((FailPath.f_queue (FailPath.r_core rs') = [] /\ exists pub, FailPath.f_durable (FailPath.r_core rs') = pub ++ FailPath.f_durable (FailPath.r_core rs) /\
      map fst pub = map FailPath.pe_id (FailPath.f_queue (FailPath.r_core rs))) \/
   (FailPath.f_durable (FailPath.r_core rs') = FailPath.f_durable (FailPath.r_core rs) /\
      map FailPath.pe_id (FailPath.f_queue (FailPath.r_core rs')) = map FailPath.pe_id (FailPath.f_queue (FailPath.r_core rs)))) /\
  (FailPath.r_pending rs' = FailPath.r_pending rs \/ FailPath.r_pending rs' = []) /\
  (FailPath.f_poison (FailPath.r_core rs) = true -> FailPath.f_poison (FailPath.r_core rs') = true /\ r <> FailPath.ROk) .
Print Assumptions flush_with_deletes_is_honest.

(* ---- the retirement gate (Model/Gate.v = Record::successor_is_durable_or_deleted): the extent
   of a superseded generation is retired only when this answers true ---- *)

(* a positive answer means that the generation has no successor (the gate then does not look at
   its refcount, as in record.rs), or that its successor chain reaches a generation that is on the
   device or ends in a deleted one; the memo bits stay sound *)
Theorem gate_true_means_superseded_durably_or_deleted :
  forall l x l',
  GateProofs.memo_ok l -> Gate.gate l x = (true, l') ->
  GateProofs.memo_ok l' /\
  forall me, nth_error l x = Some me -> Gate.gn_succ me = None \/ exists s, Gate.gn_succ me = Some s /\ GateProofs.good l s.
Proof. exact GateProofs.gate_true_means_superseded_durably_or_deleted. Qed.
Check gate_true_means_superseded_durably_or_deleted :
  forall l x l',
  GateProofs.memo_ok l -> Gate.gate l x = (true, l') ->
  GateProofs.memo_ok l' /\
  forall me, nth_error l x = Some me -> Gate.gn_succ me = None \/ exists s, Gate.gn_succ me = Some s /\ GateProofs.good l s.
Print Assumptions gate_true_means_superseded_durably_or_deleted.

Theorem good_chain_reaches_durable_or_deleted :
  forall l c, GateProofs.good l c ->
  exists d n, GateProofs.reach l c d /\ nth_error l d = Some n /\ (0 < Gate.gn_sector n \/ (Gate.gn_succ n = None /\ Gate.gn_ref n = 0)).
Proof. exact GateProofs.good_unfolds. Qed.
Check good_chain_reaches_durable_or_deleted :
  forall l c, GateProofs.good l c ->
  exists d n, GateProofs.reach l c d /\ nth_error l d = Some n /\ (0 < Gate.gn_sector n \/ (Gate.gn_succ n = None /\ Gate.gn_ref n = 0)) .
Print Assumptions good_chain_reaches_durable_or_deleted.

(* it refuses only when the chain ends in a live generation that is not on the device yet *)
Theorem gate_false_means_successor_not_durable :
  forall l x l',
  GateProofs.forward l -> Gate.gate l x = (false, l') ->
  l' = l /\ exists me s, nth_error l x = Some me /\ Gate.gn_succ me = Some s /\ ~ GateProofs.good l s.
Proof. exact GateProofs.gate_false_means_successor_not_durable. Qed.
Check gate_false_means_successor_not_durable :
  forall l x l',
  GateProofs.forward l -> Gate.gate l x = (false, l') ->
  l' = l /\ exists me s, nth_error l x = Some me /\ Gate.gn_succ me = Some s /\ ~ GateProofs.good l s .
Print Assumptions gate_false_means_successor_not_durable.

(* publishing, deleting and superseding generations never invalidate a memo bit *)
Theorem gate_memo_stays_sound :
  forall l e, GateProofs.memo_ok l -> GateProofs.memo_ok (GateProofs.gstep l e).
Proof. exact GateProofs.memo_stays_sound. Qed.
Check gate_memo_stays_sound :
  forall l e, GateProofs.memo_ok l -> GateProofs.memo_ok (GateProofs.gstep l e) .
Print Assumptions gate_memo_stays_sound.

(* ---- a shard holding more entries than one allocation-journal transaction names
   (Model/FailBatches.v: flush_worker_shards cuts the pass into batches of
   ALLOCATION_JOURNAL_MAX_ENTRIES, stops at the first batch that fails and puts back what that batch
   returns followed by every entry not yet attempted).  For every fault oracle, every sequence of
   inserts and flushes, any queue length: Ok only when nothing is left and the device is not
   poisoned; whatever the answer, every queued entry is afterwards published or still queued,
   none is lost and none counted twice; a poisoned device never answers Ok again ---- *)
Theorem batched_flush_is_honest_under_any_failures :
  forall fault d f cs,
  d < FreeSpace.U64 -> FreeSpace.initialize d = FreeSpace.FOk f ->
  let st := FailBatchesProofs.pcalls fault (FailPath.finit f) cs in
  forall st' r, FailBatches.pflush fault st = (st', r) ->
  (r = FailPath.ROk -> FailPath.f_queue st' = [] /\ FailPath.f_poison st' = false) /\
  (exists pub, FailPath.f_durable st' = pub ++ FailPath.f_durable st /\
               (forall i, In i (FailBatchesProofs.ids (FailPath.f_queue st)) <->
                          In i (map fst pub) \/ In i (FailBatchesProofs.ids (FailPath.f_queue st'))) /\
               (length pub + length (FailPath.f_queue st') = length (FailPath.f_queue st))%nat) /\
  (FailPath.f_poison st = true -> FailPath.f_poison st' = true /\ r <> FailPath.ROk).
Proof.
  intros fault d f cs Hd Hi st st' r H.
  exact (proj2 (FailBatchesProofs.pflush_spec fault [] st st' r (FailBatchesProofs.pcalls_reach fault d f cs Hd Hi) H)).
Qed.
Check batched_flush_is_honest_under_any_failures :
  forall fault d f cs,
  d < FreeSpace.U64 -> FreeSpace.initialize d = FreeSpace.FOk f ->
  let st := FailBatchesProofs.pcalls fault (FailPath.finit f) cs in
  forall st' r, FailBatches.pflush fault st = (st', r) ->
  (r = FailPath.ROk -> FailPath.f_queue st' = [] /\ FailPath.f_poison st' = false) /\
  (exists pub, FailPath.f_durable st' = pub ++ FailPath.f_durable st /\
               (forall i, In i (FailBatchesProofs.ids (FailPath.f_queue st)) <->
                          In i (map fst pub) \/ In i (FailBatchesProofs.ids (FailPath.f_queue st'))) /\
               (length pub + length (FailPath.f_queue st') = length (FailPath.f_queue st))%nat) /\
  (FailPath.f_poison st = true -> FailPath.f_poison st' = true /\ r <> FailPath.ROk).
Print Assumptions batched_flush_is_honest_under_any_failures.

Theorem unscrubbed_extents_are_never_free_over_batches :
  forall fault d f cs x b,
  d < FreeSpace.U64 -> FreeSpace.initialize d = FreeSpace.FOk f ->
  let st := FailBatchesProofs.pcalls fault (FailPath.finit f) cs in
  In x (FailPath.f_maydata st) -> FailPathProofs.blk_in b x -> ~ FreeSpaceProofs.free (FailPath.f_fs st) b.
Proof.
  intros fault d f cs x b Hd Hi.
  exact (FailPathProofs.FInv_unscrubbed _ _ x b (FailBatchesProofs.BatchInv_FInv _ _ (FailBatchesProofs.pcalls_reach fault d f cs Hd Hi))).
Qed.
Check unscrubbed_extents_are_never_free_over_batches :
  forall fault d f cs x b,
  d < FreeSpace.U64 -> FreeSpace.initialize d = FreeSpace.FOk f ->
  let st := FailBatchesProofs.pcalls fault (FailPath.finit f) cs in
  In x (FailPath.f_maydata st) -> FailPathProofs.blk_in b x -> ~ FreeSpaceProofs.free (FailPath.f_fs st) b.
Print Assumptions unscrubbed_extents_are_never_free_over_batches.
(* non-vacuity of the failure-handling theorems: three inserts on a 64-block device; the record
   write fails three times (calls 2, 3, 4: the first pwrite of each attempt), the scrub goes through
   and the second flush publishes everything; with call 5 failing too (the scrub's intent write) the
   device is poisoned and the entries stay quarantined *)
Example failed_batch_is_scrubbed_and_retried :
  match FreeSpace.initialize 262144 with
  | FreeSpace.FOk f =>
      let cs := [FailPathProofs.CInsert 1 2; FailPathProofs.CInsert 2 1; FailPathProofs.CInsert 3 3; FailPathProofs.CFlush] in
      let scrubbed := FailPathProofs.fcalls (fun i => (i =? 2) || (i =? 3) || (i =? 4)) (FailPath.finit f) cs in
      let poisoned := FailPathProofs.fcalls (fun i => (i =? 2) || (i =? 3) || (i =? 4) || (i =? 5)) (FailPath.finit f) cs in
      length (FailPath.f_queue scrubbed) = 3%nat /\ FailPath.f_poison scrubbed = false /\ FailPath.f_usage scrubbed = 0 /\
      snd (FailPath.flush (fun _ => false) scrubbed) = FailPath.ROk /\
      FailPath.f_poison poisoned = true /\ FailPath.f_usage poisoned = 6 /\
      snd (FailPath.flush (fun _ => false) poisoned) = FailPath.RIndet
  | FreeSpace.FErr _ => False
  end.
Proof. vm_compute. repeat split. Qed.

(* non-vacuity with deletes: a 19-block device (3 data blocks) is filled, one record is deleted, a
   two-block record arrives: the pass is refused for space, the retirement gives one block back,
   the retried pass is refused again (one block is not enough); after a second delete it fits *)
Example reclaim_and_retry_on_a_full_device :
  match FreeSpace.initialize 77824 with
  | FreeSpace.FOk f =>
      let quiet := fun _ : N => false in
      let rs1 := FailPathProofs.rcalls quiet (FailPath.rinit f)
                   [FailPathProofs.RCInsert 1 1; FailPathProofs.RCInsert 2 1; FailPathProofs.RCInsert 3 1; FailPathProofs.RCFlush;
                    FailPathProofs.RCInsert 4 2; FailPathProofs.RCDelete 1] in
      let (rs2, r2) := FailPath.rflush quiet rs1 in
      let (rs3, r3) := FailPath.rflush quiet (FailPath.rdelete rs2 2) in
      r2 = FailPath.RSpace /\ FailPath.r_pending rs2 = [] /\ FailPath.f_usage (FailPath.r_core rs2) = 2 /\
      r3 = FailPath.ROk /\ FailPath.f_usage (FailPath.r_core rs3) = 3 /\ length (FailPath.f_durable (FailPath.r_core rs3)) = 2%nat
  | FreeSpace.FErr _ => False
  end.
Proof. vm_compute. repeat split. Qed.

(* non-vacuity of the gate theorems: A (durable) -> B (superseded in memory, never written) -> C
   (live, not durable): the gate refuses to retire A; once C is on the device it agrees and marks
   A and B *)
Example gate_waits_for_the_end_of_the_chain :
  let chain := [Gate.mkgn 16 0 (Some 1%nat) false; Gate.mkgn 0 0 (Some 2%nat) false; Gate.mkgn 0 1 None false] in
  fst (Gate.gate chain 0) = false /\
  Gate.gate (GateProofs.gstep chain (GateProofs.GPublish 2 40)) 0 =
    (true, [Gate.mkgn 16 0 (Some 1%nat) true; Gate.mkgn 0 0 (Some 2%nat) true; Gate.mkgn 40 1 None false]).
Proof. vm_compute. split; reflexivity. Qed.
(* non-vacuity for the batched pass: 1030 one-block entries; without failures everything is
   published in two transactions; with the first device call of the second batch failing, the first
   1024 stay published, the other six stay queued and their reservations are given back *)
Example two_batches :
  match FreeSpace.initialize (8192 * 4096) with
  | FreeSpace.FOk f =>
      let cs := map (fun i => FailPathProofs.CInsert (N.of_nat i + 1) 1) (seq 0 1030) in
      let run fault :=
        let st := FailBatchesProofs.pcalls fault (FailPath.finit f) cs in
        let '(st', r) := FailBatches.pflush fault st in
        (r, length (FailPath.f_queue st'), length (FailPath.f_durable st'), FailPath.f_usage st') in
      run (fun _ => false) = (FailPath.ROk, 0%nat, 1030%nat, 1030) /\
      run (fun i => i =? 1030) = (FailPath.RIo, 6%nat, 1024%nat, 1024)
  | _ => False
  end.
Proof. vm_compute. split; reflexivity. Qed.

(* C13 -- memory accounting is exact and the limit is never exceeded by admitted writes
   (for every call sequence of the reference map, and for the reservation loop of Model/MemLimit.v
   under every interleaving). *)
From Coq Require Import List NArith Bool.
From Feox Require Import Model.Lww Proofs.LwwProofs.
From Feox Require Model.MemLimit Proofs.MemLimitProofs.
Import ListNotations.
Local Open Scope N_scope.

(* after every call of every sequence: memory_usage = sum over live keys of (R + |key| + |value|) *)
Theorem accounting_exact_every_call :
  forall c s o e, Inv c s -> Inv c (fst (step c s o e)).
Proof. exact step_Inv. Qed.
Check accounting_exact_every_call :
  forall c s o e, Inv c s -> Inv c (fst (step c s o e)).
Print Assumptions accounting_exact_every_call.

Theorem accounting_exact_every_sequence :
  forall c ops s, Inv c s -> Inv c (frun c s ops).
Proof. exact frun_Inv. Qed.
Check accounting_exact_every_sequence :
  forall c ops s, Inv c s -> Inv c (frun c s ops) .
Print Assumptions accounting_exact_every_sequence.

(* ... and after a clean reopen (recovery) *)
Theorem accounting_exact_after_reopen :
  forall c s tb ta shards clk s',
  Inv c s -> reopen c s tb ta shards clk = ReOk s' -> Inv c s'.
Proof. exact reopen_Inv. Qed.
Check accounting_exact_after_reopen :
  forall c s tb ta shards clk s',
  Inv c s -> reopen c s tb ta shards clk = ReOk s' -> Inv c s' .
Print Assumptions accounting_exact_after_reopen.

(* with a limit configured no call pushes usage above it *)
Theorem limit_never_exceeded :
  forall c s o e lim,
  limit c = Some lim -> mem s <= lim -> mem (fst (step c s o e)) <= lim.
Proof. exact limit_respected. Qed.
Check limit_never_exceeded :
  forall c s o e lim,
  limit c = Some lim -> mem s <= lim -> mem (fst (step c s o e)) <= lim .
Print Assumptions limit_never_exceeded.

(* a write refused for memory (or for any other reason) changes neither contents nor the counter
   (one exception: an increment that met an expired generation retires it before failing) *)
Theorem refused_write_changes_nothing :
  forall c s o e,
  is_err (snd (step c s o e)) = true ->
  (kv (fst (step c s o e)) = kv s /\ mem (fst (step c s o e)) = mem s) \/
  (exists k delta ts ttl old, o = Incr k delta ts ttl /\ find k (kv s) = Some old /\
     expired c old (e_tb e) (e_ta e) = Yes /\ kv (fst (step c s o e)) = remove k (kv s)).
Proof. exact error_leaves_contents. Qed.
Check refused_write_changes_nothing :
  forall c s o e,
  is_err (snd (step c s o e)) = true ->
  (kv (fst (step c s o e)) = kv s /\ mem (fst (step c s o e)) = mem s) \/
  (exists k delta ts ttl old, o = Incr k delta ts ttl /\ find k (kv s) = Some old /\
     expired c old (e_tb e) (e_ta e) = Yes /\ kv (fst (step c s o e)) = remove k (kv s)) .
Print Assumptions refused_write_changes_nothing.

(* the concurrent clause: reserve_memory is a compare-exchange loop on one counter; for any number
   of threads and any interleaving of loads, compare-exchanges, commits, drops and releases the
   counter never exceeds the limit, and it always equals what the threads account for *)
Theorem concurrent_reservations_never_exceed_the_limit :
  forall lim n evs,
  let s := MemLimit.mrun (MemLimit.minit lim n) evs in
  MemLimit.usage s <= MemLimit.limit s /\ MemLimit.limit s = lim /\
  MemLimit.usage s = MemLimitProofs.owned_sum (MemLimit.ths s).
Proof. exact MemLimitProofs.usage_never_exceeds_the_limit. Qed.
Check concurrent_reservations_never_exceed_the_limit :
  forall lim n evs,
  let s := MemLimit.mrun (MemLimit.minit lim n) evs in
  MemLimit.usage s <= MemLimit.limit s /\ MemLimit.limit s = lim /\
  MemLimit.usage s = MemLimitProofs.owned_sum (MemLimit.ths s).
Print Assumptions concurrent_reservations_never_exceed_the_limit.

Theorem refused_reservation_has_no_effect :
  forall s i cur a o,
  nth_error (MemLimit.ths s) i = Some (MemLimit.mkmth (MemLimit.MLoaded cur a) o) -> MemLimit.limit s < cur + a ->
  MemLimit.usage (MemLimit.mstep s (MemLimit.MCas i)) = MemLimit.usage s /\
  MemLimitProofs.owned_sum (MemLimit.ths (MemLimit.mstep s (MemLimit.MCas i))) = MemLimitProofs.owned_sum (MemLimit.ths s).
Proof. exact MemLimitProofs.refused_reservation_changes_nothing. Qed.
Check refused_reservation_has_no_effect :
  forall s i cur a o,
  nth_error (MemLimit.ths s) i = Some (MemLimit.mkmth (MemLimit.MLoaded cur a) o) -> MemLimit.limit s < cur + a ->
  MemLimit.usage (MemLimit.mstep s (MemLimit.MCas i)) = MemLimit.usage s /\
  MemLimitProofs.owned_sum (MemLimit.ths (MemLimit.mstep s (MemLimit.MCas i))) = MemLimitProofs.owned_sum (MemLimit.ths s).
Print Assumptions refused_reservation_has_no_effect.
(* Inv unfolds to exactly the accounting equation; zero when everything is deleted *)
Example inv_is_accounting : forall c s, Inv c s -> mem s = sum_mem c (kv s).
Proof. intros c s [_ H]; exact H. Qed.
Example all_deleted_zero : forall c s, Inv c s -> kv s = [] -> mem s = 0.
Proof. intros c s [_ H] E. rewrite H, E. reflexivity. Qed.
Example refusal_example :
  let c := mkcfg false false 3 (Some 400) 168 in
  let e := mkenv 0 5 10 11 0 None in
  let s1 := fst (step c init (Insert [1] (repeat 0 100) (Some 5) 0 false) e) in
  mem s1 = 269 /\ snd (step c s1 (Insert [2] (repeat 0 100) (Some 5) 0 false) e) = OErr OutOfMemory.
Proof. vm_compute. split; reflexivity. Qed.

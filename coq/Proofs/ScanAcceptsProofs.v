(* What the write path puts on the device, the recovery scan accepts and indexes (C10 / C02, the
   link between Model/Codec.v and Model/Recovery.v): one iteration of the scan loop at the head of
   an extent image produced by encode_extent (serialize, pad, stamp the sector- and content-bound
   token) advances exactly over that extent and does to the state what index_record says -- a
   function of the index alone, in which the three cases of newest-timestamp-wins can be read.
   Then a data area packed with such extents (layout) is scanned to index_all, and a completed run
   of retirement markers and a zero block are stepped over with the state unchanged. *)
From Coq Require Import List NArith Bool Lia Arith.
From Feox Require Import Gen.Constants Model.Bytes Model.Codec Proofs.CodecProofs Model.FreeSpace Model.Recovery
                         Proofs.ListFacts Proofs.BytesProofs Proofs.RecoveryProofs.
Import ListNotations.
Local Open Scope N_scope.

Lemma concat_chunk_blocks k : forall d, length d = (k * BLOCK)%nat -> concat (chunk_blocks d k) = d.
Proof.
  induction k as [|k IH]; intros d H; cbn [chunk_blocks concat].
  - destruct d; [reflexivity|cbn in H; lia].
  - rewrite IH; [apply firstn_skipn|]. rewrite skipn_length. lia.
Qed.

Lemma block_pos : (0 < BLOCK)%nat.
Proof. unfold BLOCK, FEOX_BLOCK_SIZE. lia. Qed.

Section Header.
Variable version : N.
Variable tok key : list N.
Variable vlen ts exp : N.
Variable rest : list N.
Hypothesis Ht : length tok = 2%nat.

Lemma header_fields :
  let d := header_bytes version tok key vlen ts exp ++ rest in
  sub d 0 2 = le_bytes 2 SECTOR_MARKER /\ sub d 2 2 = tok /\ sub d 4 2 = le_bytes 2 (N.of_nat (length key)) /\
  sub d 6 (length key) = key /\ sub d (6 + length key) 8 = le_bytes 8 vlen /\
  sub d (6 + length key + 8) 8 = le_bytes 8 ts.
Proof.
  (* [tok] and [Ht] belong to the section and cannot be destructed: the two bytes are named in a
     generalised copy *)
  revert Ht. generalize tok. intros [|t0 [|t1 [|]]]; try discriminate. intros _.
  assert (B2 : forall n, le_bytes 2 n = [n mod 256; n / 256 mod 256]) by reflexivity.
  unfold header_bytes, sub. rewrite !B2, <- !app_assoc. cbn [app Nat.add skipn].
  repeat (split; [reflexivity|]). split; [apply firstn_app_length; reflexivity|].
  rewrite skipn_add, skipn_app_length. split; [apply firstn_app_length, le_bytes_length|].
  rewrite (skipn_app_length (le_bytes 8 vlen)). apply firstn_app_length, le_bytes_length.
Qed.

Lemma header_klen : N.of_nat (length key) < 65536 ->
  u16_at (header_bytes version tok key vlen ts exp ++ rest) 4 = N.of_nat (length key).
Proof.
  intros Hk. destruct header_fields as (_ & _ & F & _).
  unfold u16_at. rewrite F. exact (le_num_le_bytes 2 _ Hk).
Qed.

Lemma header_marker : u16_at (header_bytes version tok key vlen ts exp ++ rest) 0 = SECTOR_MARKER.
Proof.
  destruct header_fields as (F & _).
  unfold u16_at. rewrite F. apply (le_num_le_bytes 2). unfold SECTOR_MARKER. lia.
Qed.

Lemma header_token : u16_at (header_bytes version tok key vlen ts exp ++ rest) 2 = le_num tok.
Proof.
  destruct header_fields as (_ & F & _).
  unfold u16_at. rewrite F. reflexivity.
Qed.

(* load_value_from_disk's check of an extent against its index entry *)
Lemma sector_holds_header_bytes :
  N.of_nat (length key) < 65536 -> vlen < 2 ^ 64 -> ts < 2 ^ 64 ->
  sector_holds (header_bytes version tok key vlen ts exp ++ rest) key vlen ts = true.
Proof.
  intros Hk Hv Hts. pose proof (header_bytes_length version tok key vlen ts exp Ht) as HL.
  destruct header_fields as (_ & _ & _ & F6 & F7 & F8).
  unfold sector_holds, u64_at. rewrite header_marker, header_klen, N.eqb_refl, Nat2N.id, Nat.eqb_refl, F6, F7, F8 by assumption.
  rewrite list_eqb_refl, !(le_num_le_bytes 8), !N.eqb_refl by assumption. rewrite app_length, HL. cbn [negb andb].
  rewrite !(proj2 (Nat.ltb_ge _ _)) by lia. reflexivity.
Qed.

End Header.

Lemma header_not_deleted version tok key vlen ts exp rest :
  list_eqb (firstn 8 (header_bytes version tok key vlen ts exp ++ rest)) DELETED_TAG = false.
Proof. unfold header_bytes. cbn [le_bytes app]. rewrite <- !app_assoc. cbn [app firstn]. vm_compute. reflexivity. Qed.

Lemma header_range version tok key vlen ts exp rest : length tok = 2%nat ->
  0 < N.of_nat (length key) -> N.of_nat (length key) < 65536 ->
  (6 + length key + 16 + (if has_expiry version then 8 else 0) <= BLOCK)%nat ->
  header_range_ok version (header_bytes version tok key vlen ts exp ++ rest) = true.
Proof.
  intros Ht K0 Hk Hfit. unfold header_range_ok.
  rewrite app_length, (header_bytes_length version tok key vlen ts exp Ht), header_klen by assumption.
  set (h := (6 + length key + 16 + (if has_expiry version then 8 else 0))%nat) in *.
  assert (E : header_size version (N.of_nat (length key)) = N.of_nat h)
    by (unfold h, header_size, SECTOR_HEADER_SIZE; destruct (has_expiry version); lia).
  rewrite E. unfold BLOCK in Hfit.
  destruct (Nat.ltb_spec (h + length rest) 6); [unfold h in *; lia|].
  destruct (N.eqb_spec (N.of_nat (length key)) 0); [lia|].
  destruct (N.ltb_spec FEOX_BLOCK_SIZE (N.of_nat h)); [lia|].
  destruct (N.ltb_spec (N.of_nat (h + length rest)) (N.of_nat h)); [lia|reflexivity].
Qed.

Lemma splice_header version key vlen ts exp rest tok : length tok = 2%nat ->
  splice (header_bytes version [0; 0] key vlen ts exp ++ rest) 2 tok = header_bytes version tok key vlen ts exp ++ rest.
Proof.
  intros Ht. destruct tok as [|t0 [|t1 [|]]]; try discriminate. unfold header_bytes. cbn [le_bytes app]. reflexivity.
Qed.

Lemma idx_find_upsert x l k : idx_find k (idx_upsert x l) = if list_eqb (e_key x) k then Some x else idx_find k l.
Proof.
  induction l as [|e t IH]; cbn [idx_upsert idx_find]; [reflexivity|].
  destruct (list_eqb (e_key e) (e_key x)) eqn:E.
  - apply list_eqb_eq in E. cbn [idx_find]. rewrite E. destruct (list_eqb (e_key x) k); reflexivity.
  - destruct (key_ltb (e_key x) (e_key e)); cbn [idx_find]; [reflexivity|].
    rewrite IH. destruct (list_eqb (e_key e) k) eqn:Ek; [|reflexivity].
    apply list_eqb_eq in Ek. subst k. rewrite list_eqb_sym, E. reflexivity.
Qed.

(* all a release changes *)
Definition with_fs (st : rstate) (f : fs) : rstate :=
  mkrs (rs_idx st) f (rs_count st) (rs_mem st) (rs_disk st) (rs_retired st) (rs_last_end st) (rs_ambiguous st).

Lemma with_fs_same st : with_fs st (rs_fs st) = st.
Proof. destruct st; reflexivity. Qed.

Lemma gap_none st : gap st (rs_last_end st) = Ok st.
Proof. unfold gap. rewrite N.ltb_irrefl. reflexivity. Qed.

Section Loop.
Variable c : rcfg.
Variable version total : N.
Variable img : image.
Variable jl : list (N * N).

Lemma scan_done fuel sector st : total <= sector -> scan fuel c version total img sector st jl = Ok st.
Proof. intros H. destruct fuel; cbn [scan]; destruct (N.leb_spec total sector); try lia; reflexivity. Qed.

(* one turn of the loop over `n` blocks that scan_step accepts, whatever it does to the state *)
Lemma scan_advance fuel sector st blocks rest n (step : res rstate) :
  skipn (N.to_nat sector) img = blocks ++ rest -> sector < total -> 0 < n ->
  scan_step c version total sector (blocks ++ rest) st jl = (do st' <- step; Ok (Advance (sector + n) st' jl)) ->
  scan (S fuel) c version total img sector st jl = (do st' <- step; scan fuel c version total img (sector + n) st' jl).
Proof.
  intros Himg Hlt Hn Hstep. cbn [scan]. destruct (N.leb_spec total sector); [lia|].
  rewrite Himg, Hstep. destruct step; cbn [bind]; try reflexivity.
  destruct (N.leb_spec (sector + n) sector); [lia|reflexivity].
Qed.

(* read-write, or read-only with nothing journaled: no block is skipped unread *)
Lemma ro_skip_off sector : c_ro c = false \/ jl = [] -> (if c_ro c then ro_skip jl sector else (None, jl)) = (None, jl).
Proof. intros [M|M]; rewrite M; [reflexivity|]. destruct (c_ro c); reflexivity. Qed.

End Loop.

Definition rec_ok (version : N) (r : rec) : Prop :=
  0 < N.of_nat (length (r_key r)) /\ N.of_nat (length (r_key r)) <= MAX_KEY_SIZE /\
  (6 + length (r_key r) + 16 + (if has_expiry version then 8 else 0) <= BLOCK)%nat /\
  0 < N.of_nat (length (r_value r)) /\ N.of_nat (length (r_value r)) <= MAX_VALUE_SIZE /\
  r_ts r < 2 ^ 64 /\ r_exp r < 2 ^ 64.

Definition need_of (version : N) (r : rec) : N :=
  extent_blocks version (N.of_nat (length (r_key r))) (N.of_nat (length (r_value r))).

(* for concrete records: rec_ok from the evaluation of its seven comparisons *)
Lemma rec_ok_of_checks version r :
  (0 <? N.of_nat (length (r_key r))) && (N.of_nat (length (r_key r)) <=? MAX_KEY_SIZE) &&
  Nat.leb (6 + length (r_key r) + 16 + (if has_expiry version then 8 else 0)) BLOCK &&
  (0 <? N.of_nat (length (r_value r))) && (N.of_nat (length (r_value r)) <=? MAX_VALUE_SIZE) &&
  (r_ts r <? 2 ^ 64) && (r_exp r <? 2 ^ 64) = true -> rec_ok version r.
Proof.
  intros H. repeat (apply andb_true_iff in H; destruct H as [H ?]).
  repeat split; try (apply N.ltb_lt; assumption); try (apply N.leb_le; assumption). apply Nat.leb_le. assumption.
Qed.

(* a key that fits the head block is far below the key size limit *)
Lemma rec_ok_intro version r :
  0 < N.of_nat (length (r_key r)) ->
  (6 + length (r_key r) + 16 + (if has_expiry version then 8 else 0) <= BLOCK)%nat ->
  0 < N.of_nat (length (r_value r)) -> N.of_nat (length (r_value r)) <= MAX_VALUE_SIZE ->
  r_ts r < 2 ^ 64 -> r_exp r < 2 ^ 64 -> rec_ok version r.
Proof.
  intros K0 Hf V0 Vm Ts Ex. repeat split; try assumption.
  unfold BLOCK, FEOX_BLOCK_SIZE, MAX_KEY_SIZE in *. lia.
Qed.

Definition index_one (c : rcfg) (version sector : N) (r : rec) (st : rstate) : rstate :=
  let klen := N.of_nat (length (r_key r)) in
  let vlen := N.of_nat (length (r_value r)) in
  mkrs (idx_upsert (mkentry (r_key r) (r_ts r) (if has_expiry version then r_exp r else 0) vlen sector) (rs_idx st))
       (rs_fs st) (rs_count st + 1) (wrap64 (rs_mem st + record_size c klen vlen))
       (wrap64 (rs_disk st + need_of version r * FEOX_BLOCK_SIZE)) (rs_retired st) (sector + need_of version r) (rs_ambiguous st).

(* index_one for a key the index holds already: the number of keys stays *)
Definition reindex_one (c : rcfg) (version sector : N) (r : rec) (st : rstate) : rstate :=
  let st' := index_one c version sector r st in
  mkrs (rs_idx st') (rs_fs st') (rs_count st) (rs_mem st') (rs_disk st') (rs_retired st') (rs_last_end st') (rs_ambiguous st').

(* the state after the indexed generation `ex` has lost against a newer one and its extent has been
   released (st1): its sizes are taken off and the extent is queued for retirement *)
Definition displaced (c : rcfg) (version : N) (ex : entry) (st1 : rstate) : rstate :=
  let exn := extent_blocks version (N.of_nat (length (e_key ex))) (e_vlen ex) in
  push_retired c
    (mkrs (rs_idx st1) (rs_fs st1) (rs_count st1)
          (wsub (rs_mem st1) (record_size c (N.of_nat (length (e_key ex))) (e_vlen ex)))
          (wsub (rs_disk st1) (exn * FEOX_BLOCK_SIZE))
          (rs_retired st1) (rs_last_end st1) (rs_ambiguous st1))
    (e_sector ex, exn).

(* what the scan does with a well-formed record at `sector`: the index decides *)
Definition index_record (c : rcfg) (version sector : N) (r : rec) (st : rstate) : res rstate :=
  match idx_find (r_key r) (rs_idx st) with
  | None => do st4 <- gap st sector; Ok (index_one c version sector r st4)
  | Some ex =>
      if r_ts r <? e_ts ex then Ok (push_retired c st (sector, need_of version r))
      else
        do st1 <- fs_release st (e_sector ex) (extent_blocks version (N.of_nat (length (e_key ex))) (e_vlen ex));
        do st4 <- gap (displaced c version ex st1) sector;
        Ok (reindex_one c version sector r st4)
  end.

Lemma index_record_fresh c version sector r st :
  idx_find (r_key r) (rs_idx st) = None ->
  index_record c version sector r st = (do st4 <- gap st sector; Ok (index_one c version sector r st4)).
Proof. intros H. unfold index_record. rewrite H. reflexivity. Qed.

Lemma index_record_older c version sector r st ex :
  idx_find (r_key r) (rs_idx st) = Some ex -> r_ts r < e_ts ex ->
  index_record c version sector r st = Ok (push_retired c st (sector, need_of version r)).
Proof. intros H L. unfold index_record. rewrite H. apply N.ltb_lt in L. rewrite L. reflexivity. Qed.

Lemma index_record_newer c version sector r st ex :
  idx_find (r_key r) (rs_idx st) = Some ex -> e_ts ex <= r_ts r ->
  index_record c version sector r st =
  (do st1 <- fs_release st (e_sector ex) (extent_blocks version (N.of_nat (length (e_key ex))) (e_vlen ex));
   do st4 <- gap (displaced c version ex st1) sector;
   Ok (reindex_one c version sector r st4)).
Proof. intros H L. unfold index_record. rewrite H. apply N.ltb_ge in L. rewrite L. reflexivity. Qed.

(* a step that succeeds differs from this function of the index only in the free-space manager:
   whether the releases succeed is a matter of the free-space invariants, what is indexed, counted
   and queued is not *)
Definition index_pure (c : rcfg) (version sector : N) (r : rec) (st : rstate) : rstate :=
  match idx_find (r_key r) (rs_idx st) with
  | None => index_one c version sector r st
  | Some ex =>
      if r_ts r <? e_ts ex then push_retired c st (sector, need_of version r)
      else reindex_one c version sector r (displaced c version ex st)
  end.

Lemma fs_release_inv st a n st1 : fs_release st a n = Ok st1 -> exists f, st1 = with_fs st f.
Proof.
  unfold fs_release. destruct (release a n (rs_fs st)) as [[x|e] f]; [|discriminate]. intros [= <-]. exists f. reflexivity.
Qed.

Lemma gap_inv st sector st4 : gap st sector = Ok st4 -> exists f, st4 = with_fs st f.
Proof.
  unfold gap. destruct (rs_last_end st <? sector); [apply fs_release_inv|].
  intros [= <-]. exists (rs_fs st). symmetry. apply with_fs_same.
Qed.

Lemma index_record_inv c version sector r st st1 :
  index_record c version sector r st = Ok st1 -> exists f, st1 = with_fs (index_pure c version sector r st) f.
Proof.
  unfold index_record, index_pure. destruct (idx_find (r_key r) (rs_idx st)) as [ex|].
  - destruct (r_ts r <? e_ts ex); [intros [= <-]; eexists; symmetry; apply with_fs_same|].
    destruct (fs_release st _ _) as [st2| |] eqn:R; try discriminate. destruct (fs_release_inv _ _ _ _ R) as (f1 & ->).
    cbn [bind]. destruct (gap _ sector) as [st4| |] eqn:G; try discriminate. destruct (gap_inv _ _ _ G) as (f4 & ->).
    intros [= <-]. exists f4. unfold displaced, push_retired.
    destruct (c_ro c); cbn [reindex_one index_one with_fs rs_idx rs_fs rs_count rs_mem rs_disk rs_retired rs_last_end rs_ambiguous]; reflexivity.
  - destruct (gap st sector) as [st4| |] eqn:G; try discriminate. destruct (gap_inv _ _ _ G) as (f4 & ->).
    intros [= <-]. exists f4. reflexivity.
Qed.

Lemma index_pure_ambiguous c version sector r st : rs_ambiguous (index_pure c version sector r st) = rs_ambiguous st.
Proof.
  unfold index_pure, displaced, push_retired.
  destruct (idx_find (r_key r) (rs_idx st)) as [ex|]; [destruct (r_ts r <? e_ts ex)|]; destruct (c_ro c); reflexivity.
Qed.

Section OneRecord.
Variable version sector : N.
Variable r : rec.
Let klen := N.of_nat (length (r_key r)).
Let vlen := N.of_nat (length (r_value r)).
Let need := need_of version r.
Let hdr := (6 + length (r_key r) + 16 + (if has_expiry version then 8 else 0))%nat.

Hypothesis Hr : rec_ok version r.
Let Hk0 : 0 < klen. Proof. exact (proj1 Hr). Qed.
Let Hkmax : klen <= MAX_KEY_SIZE. Proof. exact (proj1 (proj2 Hr)). Qed.
Let Hfit : (hdr <= BLOCK)%nat. Proof. exact (proj1 (proj2 (proj2 Hr))). Qed.
Let Hv0 : 0 < vlen. Proof. exact (proj1 (proj2 (proj2 (proj2 Hr)))). Qed.
Let Hv : vlen <= MAX_VALUE_SIZE. Proof. exact (proj1 (proj2 (proj2 (proj2 (proj2 Hr))))). Qed.
Let Hts : r_ts r < 2 ^ 64. Proof. exact (proj1 (proj2 (proj2 (proj2 (proj2 (proj2 Hr)))))). Qed.
Let Hexp : r_exp r < 2 ^ 64. Proof. exact (proj2 (proj2 (proj2 (proj2 (proj2 (proj2 Hr)))))). Qed.

Lemma klen_small : klen < 65536.
Proof. unfold klen, hdr, BLOCK, FEOX_BLOCK_SIZE in *. destruct (has_expiry version); lia. Qed.

Lemma hdr_is_header_size : N.of_nat hdr = header_size version klen.
Proof. unfold hdr, header_size, klen, SECTOR_HEADER_SIZE. destruct (has_expiry version); lia. Qed.

Lemma need_pos : 0 < need /\ N.of_nat hdr + vlen <= need * FEOX_BLOCK_SIZE.
Proof.
  unfold need, need_of, extent_blocks, blocks_for, total_size. fold klen vlen. rewrite <- hdr_is_header_size. unfold FEOX_BLOCK_SIZE.
  assert (Z4 : 4096 <> 0) by lia.
  assert (X0 : 0 < N.of_nat hdr + vlen) by lia.
  generalize dependent (N.of_nat hdr + vlen). intros x X0.
  pose proof (N.div_mod (x + 4096 - 1) 4096 Z4) as D.
  pose proof (N.mod_upper_bound (x + 4096 - 1) 4096 Z4) as M.
  generalize dependent ((x + 4096 - 1) / 4096). generalize dependent ((x + 4096 - 1) mod 4096). intros m M q D. lia.
Qed.

Lemma serialize_length : length (serialize version r) = (N.to_nat need * BLOCK)%nat.
Proof.
  destruct need_pos as (P & Q).
  unfold serialize. fold klen vlen. change (extent_blocks version klen vlen) with need.
  set (body := le_bytes 2 SECTOR_MARKER ++ [0; 0] ++ le_bytes 2 klen ++ r_key r ++ le_bytes 8 vlen ++ le_bytes 8 (r_ts r) ++
               (if has_expiry version then le_bytes 8 (r_exp r) else []) ++ r_value r).
  assert (BL : length body = (hdr + length (r_value r))%nat).
  { unfold body, hdr. rewrite !app_length, !le_bytes_length. destruct (has_expiry version); cbn [length]; rewrite ?le_bytes_length; lia. }
  rewrite app_length. unfold zeros. rewrite repeat_length.
  assert (E : N.to_nat (need * FEOX_BLOCK_SIZE) = (N.to_nat need * BLOCK)%nat) by (unfold BLOCK; lia).
  rewrite E. assert ((length body <= N.to_nat need * BLOCK)%nat).
  { rewrite BL. rewrite <- E. unfold vlen in Q. lia. }
  lia.
Qed.

(* the extent image: header with the token bytes the write path leaves there, value, padding *)
Lemma encode_shape :
  exists tok pad, length tok = 2%nat /\
    encode_extent version sector r = header_bytes version tok (r_key r) vlen (r_ts r) (r_exp r) ++ (r_value r ++ pad) /\
    le_num tok = (if has_token version then record_token sector (encode_extent version sector r) else 0) /\
    (has_token version = true -> le_num tok <> 0) /\
    length (encode_extent version sector r) = (N.to_nat need * BLOCK)%nat.
Proof.
  destruct (serialize_shape version r) as (pad & S). fold vlen in S.
  assert (LS : forall tk, length tk = 2%nat ->
            length (header_bytes version tk (r_key r) vlen (r_ts r) (r_exp r) ++ r_value r ++ pad) = (N.to_nat need * BLOCK)%nat).
  { intros tk Htk. rewrite <- serialize_length, S, !app_length, !header_bytes_length by (reflexivity || exact Htk). reflexivity. }
  unfold encode_extent. destruct (has_token version) eqn:T.
  - assert (HR : header_range_ok version (serialize version r) = true).
    { rewrite S. apply header_range; [reflexivity|exact Hk0|exact klen_small|exact Hfit]. }
    destruct (stamp_self_consistent version sector _ HR) as (A & _ & C).
    unfold stamp in *. rewrite HR in *.
    set (t := record_token sector (serialize version r)) in *. pose proof (le_bytes_length 2 t) as Lt.
    exists (le_bytes 2 t), pad.
    assert (SP : splice (serialize version r) 2 (le_bytes 2 t) = header_bytes version (le_bytes 2 t) (r_key r) vlen (r_ts r) (r_exp r) ++ r_value r ++ pad)
      by (rewrite S; apply splice_header, Lt).
    assert (E : le_num (le_bytes 2 t) = u16_at (splice (serialize version r) 2 (le_bytes 2 t)) 2)
      by (rewrite SP; symmetry; apply header_token, Lt).
    split; [exact Lt|]. split; [exact SP|]. rewrite E. split; [exact A|]. split; [intros _; exact C|].
    rewrite SP. exact (LS _ Lt).
  - exists [0; 0], pad. rewrite S. do 3 (split; [reflexivity|]). split; [discriminate|]. apply LS. reflexivity.
Qed.

(* the value an index entry for this extent is read back with (load_value_from_disk): the whole
   extent is re-read, checked against the entry (marker, key, value length, timestamp) and the
   value bytes are taken at the header size *)
Theorem read_value_returns_the_value img rest0 :
  skipn (N.to_nat sector) img = chunk_blocks (encode_extent version sector r) (N.to_nat need) ++ rest0 ->
  read_value version img (mkentry (r_key r) (r_ts r) (if has_expiry version then r_exp r else 0) vlen sector) = Some (r_value r).
Proof.
  intros Himg. destruct encode_shape as (tok & pad & Lt & ES & _ & _ & EL).
  pose proof (header_bytes_length version tok (r_key r) vlen (r_ts r) (r_exp r) Lt) as HL. fold hdr in HL.
  unfold read_value. cbn [e_key e_vlen e_ts e_sector]. fold klen. change (extent_blocks version klen vlen) with need.
  rewrite Himg, firstn_app, chunk_blocks_length, Nat.sub_diag, firstn_all2, app_nil_r by (rewrite chunk_blocks_length; lia).
  rewrite concat_chunk_blocks by exact EL. rewrite ES.
  rewrite sector_holds_header_bytes by (try exact Lt; try exact klen_small; unfold MAX_VALUE_SIZE in Hv; lia).
  rewrite <- hdr_is_header_size, Nat2N.id, (Nat2N.id (length (r_value r)) : N.to_nat vlen = _), !app_length, HL.
  destruct (Nat.leb_spec (hdr + length (r_value r)) (hdr + (length (r_value r) + length pad))); [|lia].
  f_equal. rewrite sub_app_ge by lia. rewrite HL, Nat.sub_diag. apply sub_0_app. reflexivity.
Qed.

Variable c : rcfg.
Variable total : N.
Variable st : rstate.
Variable jl : list (N * N).
Variable rest' : image.

(* every check scan_step makes on the bytes passes *)
Lemma scan_step_on_encoded :
  c_ro c = false \/ jl = [] -> sector + need <= total ->
  scan_step c version total sector (chunk_blocks (encode_extent version sector r) (N.to_nat need) ++ rest') st jl =
  (do st' <- index_record c version sector r st; Ok (Advance (sector + need) st' jl)).
Proof.
  intros Hmode Hin.
  destruct encode_shape as (tok & pad & Lt & ES & Tk & Tnz & EL).
  destruct need_pos as (NP & _).
  pose proof klen_small as KS. assert (V64 : vlen < 2 ^ 64) by (unfold MAX_VALUE_SIZE in Hv; lia).
  pose proof (header_bytes_length version tok (r_key r) vlen (r_ts r) (r_exp r) Lt) as HL. fold hdr in HL.
  set (E := encode_extent version sector r) in *.
  destruct (N.to_nat need) as [|k'] eqn:NK; [lia|]. cbn [chunk_blocks app].
  (* the head block begins with the header; head and tail blocks together are the extent again *)
  assert (HD : firstn BLOCK E = header_bytes version tok (r_key r) vlen (r_ts r) (r_exp r) ++ firstn (BLOCK - hdr) (r_value r ++ pad)).
  { rewrite ES, firstn_app, HL. rewrite firstn_all2 by (rewrite HL; exact Hfit). reflexivity. }
  set (rest1 := firstn (BLOCK - hdr) (r_value r ++ pad)) in HD.
  assert (WH : (header_bytes version tok (r_key r) vlen (r_ts r) (r_exp r) ++ rest1) ++
               concat (firstn (N.to_nat (need - 1)) (chunk_blocks (skipn BLOCK E) k' ++ rest')) = E).
  { rewrite <- HD. replace (N.to_nat (need - 1)) with k' by lia.
    rewrite firstn_app, chunk_blocks_length, Nat.sub_diag, app_nil_r.
    rewrite (firstn_all2 (chunk_blocks (skipn BLOCK E) k')) by (rewrite chunk_blocks_length; lia).
    exact (concat_chunk_blocks (S k') E EL). }
  unfold scan_step. rewrite (ro_skip_off c jl sector Hmode).
  rewrite HD, header_not_deleted, header_marker, N.eqb_refl, header_range, !header_token, parse_header_bytes by assumption.
  fold klen. change (extent_blocks version klen vlen) with need. rewrite WH. cbn [negb].
  (* the token is there exactly when the format has one, and it is the right one *)
  replace (negb (has_token version) && negb (le_num tok =? 0) || has_token version && (le_num tok =? 0)) with false
    by (rewrite Tk; destruct (has_token version); [destruct (N.eqb_spec (record_token sector E) 0) as [Z|]; [destruct (Tnz eq_refl); congruence|]|]; reflexivity).
  replace (if has_token version then le_num tok =? record_token sector E else true) with true
    by (rewrite Tk; destruct (has_token version); [rewrite N.eqb_refl|]; reflexivity).
  destruct (N.ltb_spec MAX_KEY_SIZE klen); [lia|]. destruct (N.eqb_spec vlen 0); [lia|]. destruct (N.ltb_spec MAX_VALUE_SIZE vlen); [lia|].
  destruct (N.eqb_spec need 0); [lia|]. destruct (N.ltb_spec total (sector + need)); [lia|]. cbn [orb negb].
  replace (match jl with (s, _) :: _ => c_ro c && (s <? sector + need) | [] => false end) with false
    by (destruct Hmode as [M|M]; rewrite M; [destruct jl as [|[s x] t]|]; reflexivity).
  unfold index_record.
  destruct (idx_find (r_key r) (rs_idx st)) as [ex|]; [destruct (r_ts r <? e_ts ex); [reflexivity|]|].
  - destruct (fs_release st (e_sector ex) _) as [st1| |]; [cbn [bind]|reflexivity ..].
    destruct (gap (displaced c version ex st1) sector) eqn:G; unfold gap, displaced in G; cbn zeta in G; rewrite G; reflexivity.
  - destruct (gap st sector) eqn:G; unfold gap in G; rewrite G; reflexivity.
Qed.

End OneRecord.

Lemma need_of_pos version r : rec_ok version r -> 0 < need_of version r.
Proof. intros Hr. exact (proj1 (need_pos version r Hr)). Qed.

(* the extents of the records laid end to end from `sector` on *)
Fixpoint layout (version sector : N) (rs : list rec) : image :=
  match rs with
  | [] => []
  | r :: t => chunk_blocks (encode_extent version sector r) (N.to_nat (need_of version r)) ++ layout version (sector + need_of version r) t
  end.

Fixpoint blocks_of (version : N) (rs : list rec) : N :=
  match rs with [] => 0 | r :: t => need_of version r + blocks_of version t end.

Fixpoint index_all (c : rcfg) (version sector : N) (rs : list rec) (st : rstate) : rstate :=
  match rs with
  | [] => st
  | r :: t => index_all c version (sector + need_of version r) t (index_one c version sector r st)
  end.

Fixpoint distinct_keys (rs : list rec) : Prop :=
  match rs with
  | [] => True
  | r :: t => (forall r', In r' t -> list_eqb (r_key r) (r_key r') = false) /\ distinct_keys t
  end.

Theorem scan_of_a_packed_data_area c version total jl img :
  c_ro c = false \/ jl = [] ->
  forall rs fuel sector st,
  Forall (rec_ok version) rs -> distinct_keys rs ->
  (forall r, In r rs -> idx_find (r_key r) (rs_idx st) = None) ->
  rs_last_end st = sector ->
  skipn (N.to_nat sector) img = layout version sector rs ->
  total = sector + blocks_of version rs ->
  (length rs < fuel)%nat ->
  scan fuel c version total img sector st jl = Ok (index_all c version sector rs st).
Proof.
  intros Hmode. induction rs as [|r t IH]; intros fuel sector st Hok Hd Hfresh Hle Himg Htot Hfuel; cbn [blocks_of] in Htot.
  - apply scan_done. lia.
  - pose proof (need_of_pos version r (Forall_inv Hok)) as NP. destruct Hd as [Hd1 Hd2].
    destruct fuel as [|f]; [cbn in Hfuel; lia|]. cbn [length] in Hfuel. cbn [layout] in Himg.
    assert (Hin : sector + need_of version r <= total) by lia.
    rewrite (scan_advance c version total img jl f sector st _ _ _ _ Himg ltac:(lia) NP
               (scan_step_on_encoded version sector r (Forall_inv Hok) c total st jl _ Hmode Hin)).
    (* no gap in front of the record, and its key is new *)
    unfold index_record. rewrite (Hfresh r (or_introl eq_refl)). subst sector. rewrite gap_none. cbn [bind index_all].
    apply IH; try assumption; try reflexivity; try lia.
    + exact (Forall_inv_tail Hok).
    + intros r' Hr'. cbn [index_one rs_idx]. rewrite idx_find_upsert. cbn [e_key]. rewrite (Hd1 r' Hr'). apply Hfresh. right. exact Hr'.
    + rewrite N2Nat.inj_add. exact (skipn_past _ _ _ _ _ Himg (chunk_blocks_length _ _)).
Qed.

Theorem scan_recovers_a_packed_data_area c version total jl img :
  c_ro c = false ->
  forall rs fuel sector st,
  Forall (rec_ok version) rs -> distinct_keys rs ->
  (forall r, In r rs -> idx_find (r_key r) (rs_idx st) = None) ->
  rs_last_end st = sector ->
  skipn (N.to_nat sector) img = layout version sector rs ->
  total = sector + blocks_of version rs ->
  (length rs < fuel)%nat ->
  scan fuel c version total img sector st jl = Ok (index_all c version sector rs st).
Proof. intros Hrw. exact (scan_of_a_packed_data_area c version total jl img (or_introl Hrw)). Qed.

Lemma index_all_keeps c version k e : forall rs sector st,
  idx_find k (rs_idx st) = Some e -> (forall r, In r rs -> list_eqb (r_key r) k = false) ->
  idx_find k (rs_idx (index_all c version sector rs st)) = Some e.
Proof.
  induction rs as [|r t IH]; intros sector st H Hn; [exact H|]. cbn [index_all]. apply IH.
  - cbn [index_one rs_idx]. rewrite idx_find_upsert. cbn [e_key]. rewrite (Hn r (or_introl eq_refl)). exact H.
  - intros r' Hr'. apply Hn. right. exact Hr'.
Qed.

Theorem every_laid_out_record_is_indexed c version : forall rs sector st r,
  distinct_keys rs -> In r rs ->
  exists s, idx_find (r_key r) (rs_idx (index_all c version sector rs st)) =
            Some (mkentry (r_key r) (r_ts r) (if has_expiry version then r_exp r else 0) (N.of_nat (length (r_value r))) s).
Proof.
  induction rs as [|r0 t IH]; intros sector st r Hd Hin; [destruct Hin|].
  destruct Hd as [Hd1 Hd2]. cbn [index_all]. destruct Hin as [<-|Hin]; [|apply IH; assumption].
  exists sector. apply index_all_keeps.
  - cbn [index_one rs_idx]. rewrite idx_find_upsert. cbn [e_key]. rewrite list_eqb_refl. reflexivity.
  - intros r' Hr'. rewrite list_eqb_sym. apply Hd1. exact Hr'.
Qed.

Lemma complete_marker_facts data sector remaining :
  is_complete_marker data sector remaining = true ->
  list_eqb (firstn 8 data) DELETED_TAG = true /\ u64_at data 8 = remaining /\
  nth 18 data 0 = RETIREMENT_COMPLETE /\ marker_token sector data = u16_at data 16.
Proof.
  unfold is_complete_marker. intros H. repeat (apply andb_true_iff in H; destruct H as [H ?]).
  repeat split; try assumption; try (apply N.eqb_eq; assumption). symmetry. apply N.eqb_eq. assumption.
Qed.

Lemma tails_complete_run k : forall sector remaining,
  remaining < 2 ^ 64 -> tails_complete (marker_run sector remaining k) sector remaining = true.
Proof.
  induction k as [|k IH]; intros sector remaining Hr; cbn [marker_run tails_complete]; [reflexivity|].
  rewrite marker_roundtrip by exact Hr. cbn [andb]. apply IH. lia.
Qed.

(* a completed run of retirement markers is stepped over and not retired again *)
Theorem scan_step_skips_a_complete_marker_run c version total sector n st jl rest' :
  (c_ro c = false \/ jl = []) -> has_token version = true ->
  0 < n -> sector + n <= total -> total <= U64MAX ->
  scan_step c version total sector (marker_run sector n (N.to_nat n) ++ rest') st jl = Ok (Advance (sector + n) st jl).
Proof.
  intros Hmode Ht Hn Hin Hmax. assert (Hr : n < 2 ^ 64) by (unfold U64MAX in Hmax; lia).
  destruct (N.to_nat n) as [|k] eqn:NK; [lia|]. cbn [marker_run app].
  pose proof (marker_roundtrip sector n Hr) as MR.
  destruct (complete_marker_facts _ _ _ MR) as (F1 & F2 & F3 & F4).
  unfold scan_step. rewrite (ro_skip_off c jl sector Hmode), F1, Ht. cbn [negb andb]. rewrite F4, N.eqb_refl. cbn [negb]. rewrite F2.
  destruct (N.ltb_spec U64MAX (sector + n)); [lia|].
  destruct (N.eqb_spec n 0); [lia|]. destruct (N.ltb_spec total (sector + n)); [lia|]. cbn [orb].
  rewrite F3, N.eqb_refl. cbn [negb].
  destruct (1 <? n); [|reflexivity].
  replace (N.to_nat (n - 1)) with k by lia. rewrite firstn_app, marker_run_length, Nat.sub_diag. cbn [firstn]. rewrite app_nil_r.
  rewrite firstn_all2 by (rewrite marker_run_length; lia). rewrite tails_complete_run by lia. reflexivity.
Qed.

Theorem scan_step_skips_a_zero_block c version total sector st jl rest' :
  c_ro c = false \/ jl = [] ->
  scan_step c version total sector (zeros BLOCK :: rest') st jl = Ok (Advance (sector + 1) st jl).
Proof.
  intros Hmode. unfold scan_step. rewrite (ro_skip_off c jl sector Hmode).
  assert (B8 : (8 <= BLOCK)%nat) by (unfold BLOCK, FEOX_BLOCK_SIZE; lia).
  destruct (zero_block_is_neither BLOCK B8) as [Z1 Z2].
  destruct (list_eqb (firstn 8 (zeros BLOCK)) DELETED_TAG) eqn:E; [apply list_eqb_eq in E; contradiction|].
  destruct (N.eqb_spec (u16_at (zeros BLOCK) 0) SECTOR_MARKER); [contradiction|]. reflexivity.
Qed.

(* The association lists of Model/Sched.v ([aget] / [aset] / [adel]), which the Sweep, Scan, Clock
   and CacheGen models use as well. *)
From Coq Require Import List NArith.
From Feox Require Import Model.Sched.
Import ListNotations.
Local Open Scope N_scope.

Lemma aget_aset {A} k k' (a : A) l : aget k' (aset k a l) = if k' =? k then Some a else aget k' l.
Proof.
  rewrite (N.eqb_sym k' k). induction l as [|[k2 a2] t IH]; cbn; [reflexivity|].
  destruct (N.eqb_spec k2 k) as [->|Hne]; cbn; [destruct (k =? k'); reflexivity|].
  rewrite IH. destruct (N.eqb_spec k2 k') as [->|_]; [|reflexivity].
  destruct (N.eqb_spec k k'); [congruence|reflexivity].
Qed.

Lemma aget_aset_same {A} k (a : A) l : aget k (aset k a l) = Some a.
Proof. rewrite aget_aset, N.eqb_refl. reflexivity. Qed.

Lemma aget_aset_other {A} k k' (a : A) l : k' <> k -> aget k' (aset k a l) = aget k' l.
Proof. intros Hne. rewrite aget_aset. apply N.eqb_neq in Hne as ->. reflexivity. Qed.

Lemma aget_adel {A} k k' (l : list (N * A)) : aget k' (adel k l) = if k' =? k then None else aget k' l.
Proof.
  rewrite (N.eqb_sym k' k). induction l as [|[k2 a2] t IH]; cbn; [destruct (k =? k'); reflexivity|].
  destruct (N.eqb_spec k2 k) as [->|Hne]; cbn; [rewrite IH; destruct (k =? k'); reflexivity|].
  rewrite IH. destruct (N.eqb_spec k2 k') as [->|_]; [|reflexivity].
  destruct (N.eqb_spec k k'); [congruence|reflexivity].
Qed.

Lemma aget_adel_same {A} k (l : list (N * A)) : aget k (adel k l) = None.
Proof. rewrite aget_adel, N.eqb_refl. reflexivity. Qed.

Lemma aget_adel_other {A} k k' (l : list (N * A)) : k' <> k -> aget k' (adel k l) = aget k' l.
Proof. intros Hne. rewrite aget_adel. apply N.eqb_neq in Hne as ->. reflexivity. Qed.

Lemma aget_aset_some {A} i j (a b : A) l :
  aget i (aset j a l) = Some b -> (i = j /\ b = a) \/ (i <> j /\ aget i l = Some b).
Proof.
  rewrite aget_aset. destruct (N.eqb_spec i j) as [->|Hne]; [intros [= <-]; left | right]; split; trivial.
Qed.

Lemma aget_adel_some {A} k k' (l : list (N * A)) a : aget k' (adel k l) = Some a -> aget k' l = Some a /\ k' <> k.
Proof. rewrite aget_adel. destruct (N.eqb_spec k' k); [discriminate | split; assumption]. Qed.

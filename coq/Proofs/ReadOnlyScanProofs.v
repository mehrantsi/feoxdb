(* C15: the read-only scan (what migrate() runs on its source).  It steps over every extent the
   journal names without looking at a byte of it, and -- on any image, whatever it meets -- it never
   queues an extent for retirement. *)
From Coq Require Import List NArith Bool Lia Arith.
From Feox Require Import Model.Recovery Proofs.RecoveryProofs.
Import ListNotations.
Local Open Scope N_scope.

(* inside the first journaled extent: jump to its end, whatever the blocks hold *)
Theorem read_only_scan_steps_over_a_journaled_extent_unread c version total sector rest rest2 st s n t :
  c_ro c = true -> s <= sector < s + n ->
  scan_step c version total sector rest st ((s, n) :: t) = Ok (Advance (s + n) st t) /\
  scan_step c version total sector rest st ((s, n) :: t) = scan_step c version total sector rest2 st ((s, n) :: t).
Proof.
  intros RO H.
  assert (J : ro_skip ((s, n) :: t) sector = (Some (s + n), t)).
  { cbn [ro_skip]. destruct (N.ltb_spec sector s); [lia|]. destruct (N.ltb_spec sector (s + n)); [reflexivity|lia]. }
  unfold scan_step. rewrite RO, J. split; reflexivity.
Qed.

(* the whole read-only scan, on any image from any state: nothing is queued for retirement *)
Theorem read_only_scan_queues_nothing c version total img : forall fuel sector st jl st',
  c_ro c = true ->
  scan fuel c version total img sector st jl = Ok st' -> rs_retired st' = rs_retired st.
Proof.
  intros fuel sector st jl st' RO H.
  assert (HI : forall s st1 st2, 0 <= s -> rs_retired st1 = rs_retired st -> step_rel c s st1 st2 ->
                 rs_retired st2 = rs_retired st).
  { intros s st1 st2 _ E1 [_ [E2|(s' & n & _ & E2)]]; rewrite E2; [exact E1|].
    rewrite push_retired_retired, RO. exact E1. }
  pose proof (scan_outcome c version total img _ 0 HI fuel sector st jl (N.le_0_l _) eq_refl) as G.
  rewrite H in G. exact G.
Qed.

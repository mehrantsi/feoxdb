(* What a positive answer of the retirement gate means, and that its memo bits stay sound. *)
From Coq Require Import List NArith Bool Lia Arith.
From Feox Require Import Model.Gate.
Import ListNotations.
Local Open Scope N_scope.

(* from node c on, the chain reaches a durable generation or ends in a deleted one *)
Inductive good (l : list gnode) : nat -> Prop :=
| good_durable c n : nth_error l c = Some n -> 0 < gn_sector n -> good l c
| good_next c n s : nth_error l c = Some n -> gn_succ n = Some s -> good l s -> good l c
| good_deleted c n : nth_error l c = Some n -> gn_succ n = None -> gn_ref n = 0 -> good l c.

(* successors are created later: the chain is acyclic *)
Definition forward (l : list gnode) : Prop :=
  forall i n s, nth_error l i = Some n -> gn_succ n = Some s -> (i < s)%nat /\ (s < length l)%nat.

(* a memo bit is only ever set on a node whose successor chain is good *)
Definition memo_ok (l : list gnode) : Prop :=
  forall i n, nth_error l i = Some n -> gn_safe n = true -> exists s, gn_succ n = Some s /\ good l s.

(* what a memo bit on node i would claim *)
Definition succ_good (l : list gnode) (i : nat) : Prop :=
  forall n, nth_error l i = Some n -> exists s, gn_succ n = Some s /\ good l s.

Lemma succ_good_intro l i n s : nth_error l i = Some n -> gn_succ n = Some s -> good l s -> succ_good l i.
Proof. intros E S G n' E'. rewrite E in E'. injection E' as <-. eauto. Qed.

Lemma gwalk_sound fuel : forall l cur path p, memo_ok l ->
  gwalk fuel l cur path = Some p ->
  good l cur /\ (Forall (succ_good l) path -> Forall (succ_good l) p).
Proof.
  induction fuel as [|f IH]; intros l cur path p M H; cbn [gwalk] in H; [discriminate|].
  destruct (nth_error l cur) as [c|] eqn:E; [|discriminate].
  destruct ((0 <? gn_sector c) || gn_safe c) eqn:D.
  - injection H as <-. split; [|auto].
    apply orb_true_iff in D. destruct D as [D|D].
    + apply N.ltb_lt in D. exact (good_durable l cur c E D).
    + destruct (M cur c E D) as [s [Hs Hg]]. exact (good_next l cur c s E Hs Hg).
  - destruct (gn_succ c) as [s|] eqn:S.
    + destruct (IH l s (cur :: path) p M H) as [G Hall].
      split; [exact (good_next l cur c s E S G)|].
      intros Hp. apply Hall. constructor; [exact (succ_good_intro l cur c s E S G)|exact Hp].
    + destruct (gn_ref c =? 0) eqn:R; [|discriminate]. injection H as <-. apply N.eqb_eq in R.
      split; [exact (good_deleted l cur c E S R)|auto].
Qed.

Lemma gwalk_complete : forall fuel l cur path, forward l -> (length l <= fuel + cur)%nat ->
  gwalk fuel l cur path = None -> ~ good l cur.
Proof.
  induction fuel as [|f IH]; intros l cur path F Hf H G.
  - assert (Hn : nth_error l cur = None) by (apply nth_error_None; lia).
    inversion G; congruence.
  - cbn [gwalk] in H. destruct (nth_error l cur) as [c|] eqn:E; [|inversion G; congruence].
    destruct ((0 <? gn_sector c) || gn_safe c) eqn:D; [discriminate|].
    apply orb_false_iff in D. destruct D as [D _]. apply N.ltb_ge in D.
    (* the walk went on from c, or stopped at a live end: each way of being good is refuted *)
    inversion G as [c0 n E0 P|c0 n s E0 S G0|c0 n E0 S R]; subst; rewrite E in E0; injection E0 as <-.
    + lia.
    + rewrite S in H. destruct (F cur c s E S) as [Hlt _].
      exact (IH l s (cur :: path) F ltac:(lia) H G0).
    + rewrite S in H. apply N.eqb_eq in R. rewrite R in H. discriminate.
Qed.

Fixpoint gupdate (l : list gnode) (i : nat) (f : gnode -> gnode) : list gnode :=
  match l, i with
  | [], _ => []
  | n :: t, O => f n :: t
  | n :: t, S k => n :: gupdate t k f
  end.

Lemma nth_gupdate l i f j : nth_error (gupdate l i f) j =
  match nth_error l j with Some n => Some (if Nat.eqb i j then f n else n) | None => None end.
Proof.
  revert i j. induction l as [|n t IH]; intros i j; [destruct i, j; reflexivity|].
  destruct i, j; cbn; try reflexivity; [destruct (nth_error t j); reflexivity | apply IH].
Qed.

Lemma length_gupdate l i f : length (gupdate l i f) = length l.
Proof. revert i. induction l as [|n t IH]; intros [|i]; cbn; auto. Qed.

Lemma mark_gupdate l : forall i,
  mark l i = gupdate l i (fun n => mkgn (gn_sector n) (gn_ref n) (gn_succ n) true).
Proof. induction l as [|n t IH]; intros [|i]; cbn; auto. rewrite IH. reflexivity. Qed.

(* What a change of a node must keep for every good chain through it to stay good: a durable node
   stays durable, a successor stays, a deleted end stays deleted or becomes durable. *)
Definition keeps (n n' : gnode) : Prop :=
  (0 < gn_sector n -> 0 < gn_sector n') /\
  (forall s, gn_succ n = Some s -> gn_succ n' = Some s) /\
  (gn_succ n = None -> gn_ref n = 0 -> 0 < gn_sector n' \/ (gn_succ n' = None /\ gn_ref n' = 0)).

Lemma keeps_refl n : keeps n n.
Proof. repeat split; auto. Qed.

Lemma good_mono l l' :
  (forall c n, nth_error l c = Some n -> exists n', nth_error l' c = Some n' /\ keeps n n') ->
  forall c, good l c -> good l' c.
Proof.
  intros H c G. induction G as [c n E P|c n s E S G IH|c n E S R];
    destruct (H c n E) as (n' & E' & K1 & K2 & K3).
  - exact (good_durable l' c n' E' (K1 P)).
  - exact (good_next l' c n' s E' (K2 s S) IH).
  - destruct (K3 S R) as [P|(S' & R')]; [exact (good_durable l' c n' E' P)|exact (good_deleted l' c n' E' S' R')].
Qed.

Lemma good_gupdate l i f :
  (forall n, nth_error l i = Some n -> keeps n (f n)) -> forall c, good l c -> good (gupdate l i f) c.
Proof.
  intros H. apply good_mono. intros c n E. rewrite nth_gupdate, E. eexists. split; [reflexivity|].
  destruct (Nat.eqb_spec i c) as [->|_]; [exact (H n E)|apply keeps_refl].
Qed.

Lemma good_app l x c : good l c -> good (l ++ x) c.
Proof.
  apply good_mono. intros c0 n E. exists n. split; [|apply keeps_refl].
  rewrite nth_error_app1; [exact E|]. apply nth_error_Some. congruence.
Qed.

(* a node may change, and may get its memo bit, as long as the bit then claims something true *)
Lemma memo_ok_gupdate l i f : memo_ok l ->
  (forall n, nth_error l i = Some n ->
     keeps n (f n) /\ (gn_safe (f n) = true -> exists s, gn_succ (f n) = Some s /\ good l s)) ->
  memo_ok (gupdate l i f).
Proof.
  intros M H j n' E Hs. rewrite nth_gupdate in E. destruct (nth_error l j) as [n|] eqn:E0; [|discriminate].
  injection E as <-.
  assert (C : exists s, gn_succ (if Nat.eqb i j then f n else n) = Some s /\ good l s).
  { destruct (Nat.eqb_spec i j) as [->|_]; [exact (proj2 (H n E0) Hs)|exact (M j n E0 Hs)]. }
  destruct C as (s & A & B). exists s. split; [exact A|].
  apply good_gupdate; [|exact B]. intros n0 E1. apply (H n0 E1).
Qed.

Lemma memo_ok_marks path : forall l, memo_ok l -> Forall (succ_good l) path -> memo_ok (fold_left mark path l).
Proof.
  induction path as [|i t IH]; intros l M H; [exact M|]. cbn [fold_left]. rewrite mark_gupdate.
  inversion H as [|? ? Hi Ht]; subst.
  assert (K : forall n, keeps n (mkgn (gn_sector n) (gn_ref n) (gn_succ n) true)) by (repeat split; cbn; auto).
  apply IH.
  - apply memo_ok_gupdate; [exact M|]. intros n E. split; [apply K|]. intros _. exact (Hi n E).
  - (* marking changes no successor and no chain *)
    eapply Forall_impl; [|exact Ht]. intros j Hj n E.
    rewrite nth_gupdate in E. destruct (nth_error l j) as [n0|] eqn:E0; [|discriminate].
    destruct (Hj n0 E0) as (s & A & B). exists s.
    split; [injection E as <-; destruct (Nat.eqb i j); exact A|]. apply good_gupdate; [|exact B]. intros n1 _. apply K.
Qed.

(* A positive answer means that the generation has no successor (the gate then does not look at
   its refcount, as in record.rs), or that its successor chain reaches a generation that is on the
   device or ends in a deleted one; the memo bits stay sound.  For x out of range, which the code
   cannot ask (self exists), the model answers true and the second part says nothing. *)
Theorem gate_true_means_superseded_durably_or_deleted l x l' :
  memo_ok l -> gate l x = (true, l') ->
  memo_ok l' /\
  forall me, nth_error l x = Some me -> gn_succ me = None \/ exists s, gn_succ me = Some s /\ good l s.
Proof.
  intros M H. unfold gate in H. destruct (nth_error l x) as [me|] eqn:E.
  2:{ injection H as <-. split; [exact M | discriminate]. }
  enough (C : memo_ok l' /\ (gn_succ me = None \/ exists s, gn_succ me = Some s /\ good l s)).
  { split; [exact (proj1 C)|]. intros me0 [= <-]. exact (proj2 C). }
  destruct (gn_safe me) eqn:S.
  { injection H as <-. split; [exact M | right; exact (M x me E S)]. }
  destruct (gn_succ me) as [s|] eqn:Su.
  2:{ injection H as <-. auto. }
  destruct (gwalk (length l) l s []) as [path|] eqn:W; [|discriminate]. injection H as <-.
  destruct (gwalk_sound _ _ _ _ _ M W) as [G Hall].
  split; [|eauto].
  apply (memo_ok_marks (x :: path)); [exact M|].
  constructor; [exact (succ_good_intro l x me s E Su G)|exact (Hall (Forall_nil _))].
Qed.

(* The gate refuses only when the chain ends in a live generation that is not on the device *)
Theorem gate_false_means_successor_not_durable l x l' :
  forward l -> gate l x = (false, l') ->
  l' = l /\ exists me s, nth_error l x = Some me /\ gn_succ me = Some s /\ ~ good l s.
Proof.
  intros F H. unfold gate in H. destruct (nth_error l x) as [me|] eqn:E; [|discriminate].
  destruct (gn_safe me); [discriminate|]. destruct (gn_succ me) as [s|] eqn:Su; [|discriminate].
  destruct (gwalk (length l) l s []) as [path|] eqn:W; [discriminate|]. injection H as <-. split; [reflexivity|].
  exists me, s. split; [reflexivity|]. split; [exact Su|]. apply (gwalk_complete (length l) l s [] F ltac:(lia) W).
Qed.

(* d lies on the successor chain that starts at c *)
Inductive reach (l : list gnode) : nat -> nat -> Prop :=
| reach_refl c : reach l c c
| reach_step c n s d : nth_error l c = Some n -> gn_succ n = Some s -> reach l s d -> reach l c d.

(* what `good` says in plain terms *)
Theorem good_unfolds l c : good l c ->
  exists d n, reach l c d /\ nth_error l d = Some n /\ (0 < gn_sector n \/ (gn_succ n = None /\ gn_ref n = 0)).
Proof.
  induction 1 as [c n E P|c n s E S G IH|c n E S R].
  - exists c, n. auto using reach_refl.
  - destruct IH as (d & nd & Rd & Hd). exists d, nd. eauto using reach_step.
  - exists c, n. auto using reach_refl.
Qed.

(* the events under which the memo bits must stay sound *)
Inductive gev :=
| GPublish (i : nat) (sector : N)      (* the flusher wrote generation i: sector set, non-zero *)
| GDelete (i : nat)                    (* generation i, current and live, is deleted *)
| GSupersede (i : nat).                (* generation i, current and live, is replaced by a new one (appended) *)

Definition gstep (l : list gnode) (e : gev) : list gnode :=
  match e with
  | GPublish i sector => if 0 <? sector then gupdate l i (fun n => mkgn sector (gn_ref n) (gn_succ n) (gn_safe n)) else l
  | GDelete i =>
      match nth_error l i with
      | Some n => if negb (gn_ref n =? 0) && match gn_succ n with None => true | Some _ => false end
                  then gupdate l i (fun n => mkgn (gn_sector n) 0 None (gn_safe n)) else l
      | None => l
      end
  | GSupersede i =>
      match nth_error l i with
      | Some n => if negb (gn_ref n =? 0) && match gn_succ n with None => true | Some _ => false end
                  then gupdate l i (fun n => mkgn (gn_sector n) 0 (Some (length l)) (gn_safe n)) ++ [mkgn 0 1 None false] else l
      | None => l
      end
  end.

(* Deleting or superseding changes a live end of a chain (no successor, referenced): no good chain
   rests on its fields, and by memo_ok its memo bit is not set. *)
Lemma memo_ok_end l i ni r succ :
  memo_ok l -> nth_error l i = Some ni ->
  negb (gn_ref ni =? 0) && match gn_succ ni with None => true | Some _ => false end = true ->
  memo_ok (gupdate l i (fun n => mkgn (gn_sector n) r succ (gn_safe n))).
Proof.
  intros M Ei C. apply andb_true_iff in C. destruct C as [R S].
  apply negb_true_iff, N.eqb_neq in R. destruct (gn_succ ni) eqn:Si; [discriminate|].
  apply memo_ok_gupdate; [exact M|]. intros n E. rewrite Ei in E. injection E as <-. split.
  - repeat split; cbn; [auto|congruence|contradiction].
  - intros Hs. destruct (M i ni Ei Hs) as (s & A & _). congruence.
Qed.

Lemma memo_ok_app l n : memo_ok l -> gn_safe n = false -> memo_ok (l ++ [n]).
Proof.
  intros M Hn j n' E Hs. apply nth_error_In, in_app_or in E. destruct E as [E|[<-|[]]]; [|congruence].
  apply In_nth_error in E. destruct E as (i & E). destruct (M i n' E Hs) as (s & A & B).
  exists s. split; [exact A|apply good_app, B].
Qed.

(* Publishing, deleting and superseding generations never invalidate a memo bit *)
Theorem memo_stays_sound l e : memo_ok l -> memo_ok (gstep l e).
Proof.
  intros M. destruct e as [i sector|i|i]; cbn [gstep].
  - destruct (0 <? sector) eqn:P; [|exact M]. apply N.ltb_lt in P.
    apply memo_ok_gupdate; [exact M|]. intros n E. split; [|exact (M i n E)].
    repeat split; cbn; auto.
  - destruct (nth_error l i) as [ni|] eqn:Ei; [|exact M].
    destruct (negb _ && _) eqn:C; [|exact M]. exact (memo_ok_end l i ni _ _ M Ei C).
  - destruct (nth_error l i) as [ni|] eqn:Ei; [|exact M].
    destruct (negb _ && _) eqn:C; [|exact M].
    apply memo_ok_app; [|reflexivity]. exact (memo_ok_end l i ni _ _ M Ei C).
Qed.

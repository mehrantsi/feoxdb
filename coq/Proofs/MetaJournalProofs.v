(* Round trips of the checksummed metadata block and of the allocation journal (C10): what
   Metadata::encode writes, Metadata::from_bytes reads back, field for field; what encode_clear
   and encode_active write, decode_slot reads back, and the newer of two records wins. *)
From Coq Require Import List NArith Bool Lia Arith.
From Feox Require Import Gen.Constants Model.Bytes Model.Crc32c Model.Codec Proofs.BytesProofs Proofs.CodecProofs
  Model.MetaJournal.
Import ListNotations.
Local Open Scope N_scope.

Record meta_ok (m : meta) : Prop := {
  mo_version : 1 <= m_version m <= METADATA_VERSION;
  mo_records : m_records m < 2 ^ 64;
  mo_size : m_size m < 2 ^ 64;
  mo_device : 0 < m_device m <= MAX_DEVICE_SIZE;
  mo_block : m_block m = FEOX_BLOCK_SIZE;
  mo_frag : m_frag m < 2 ^ 32;
  mo_created : m_created m < 2 ^ 64;
  mo_updated : m_updated m < 2 ^ 64;
  mo_generation : m_generation m < 2 ^ 64;
  mo_tail : length (m_tail m) = 48%nat
}.

(* Every field up to the generation lies behind segments of literal length, so its slice is the
   encoded field by conversion; only the 48-byte tail and the checksummed range that includes it
   need the length of the tail. *)
Theorem decode_encode_meta m : meta_ok m -> decode_meta (meta_block m) = Some m.
Proof.
  intros [Hv Hr Hs Hd Hb Hf Hc Hu Hg Ht].
  destruct m as [ver recs size dev blk frag created updated gen tail].
  cbn [m_version m_records m_size m_device m_block m_frag m_created m_updated m_generation m_tail] in *.
  unfold meta_block, encode_meta.
  cbn [m_version m_records m_size m_device m_block m_frag m_created m_updated m_generation m_tail].
  set (pre := SIGNATURE ++ _). set (post := le_bytes 8 gen ++ tail).
  set (c := crc32c 0 (sub pre 0 12 ++ sub pre 16 48 ++ post)).
  set (b := (pre ++ _) ++ _).
  assert (Cl : c < 2 ^ 32) by (apply crc32c_lt; reflexivity).
  assert (Xl : N.lxor c MASK32 < 2 ^ 32) by (apply lxor_lt; [exact Cl|reflexivity]).
  assert (BL : (136 <= length b)%nat).
  { change (length b) with (84 + length ((tail ++ zeros 4) ++ zeros (BLOCK - 136)))%nat. rewrite !app_length, Ht. cbn [zeros repeat length]. lia. }
  assert (S_post : sub b 76 56 = post).
  { change (sub b 76 56) with (sub ((post ++ zeros 4) ++ zeros (BLOCK - 136)) 0 56).
    rewrite <- app_assoc. apply sub_0_app. unfold post. rewrite app_length, Ht. reflexivity. }
  assert (S_tail : sub b 84 48 = tail).
  { change (sub b 84 48) with (sub ((tail ++ zeros 4) ++ zeros (BLOCK - 136)) 0 48).
    rewrite <- app_assoc. apply sub_0_app. symmetry. exact Ht. }
  assert (CK : meta_checksum b = c) by (unfold meta_checksum; rewrite S_post; reflexivity).
  unfold decode_meta. fold b.
  destruct (Nat.ltb_spec (length b) 136); [lia|].
  change (sub b 0 8) with SIGNATURE. change (sub b 64 4) with FM3C.
  rewrite (u32_at_le b 8 ver), (u32_at_le b 40 blk), (u32_at_le b 44 frag), (u32_at_le b 68 c),
    (u32_at_le b 72 (N.lxor c MASK32)), (u64_at_le b 16 recs), (u64_at_le b 24 size), (u64_at_le b 32 dev),
    (u64_at_le b 48 created), (u64_at_le b 56 updated), (u64_at_le b 76 gen), S_tail, CK
    by (reflexivity || assumption || (unfold METADATA_VERSION, MAX_DEVICE_SIZE, FEOX_BLOCK_SIZE in *; lia)).
  rewrite !list_eqb_refl, Hb, !N.eqb_refl.
  destruct (N.eqb_spec ver 0); [lia|]. destruct (N.ltb_spec METADATA_VERSION ver); [lia|].
  destruct (N.eqb_spec dev 0); [lia|]. destruct (N.ltb_spec MAX_DEVICE_SIZE dev); [lia|].
  cbn [negb orb andb]. rewrite andb_false_r. reflexivity.
Qed.

Definition ext_valid (total : N) (x : N * N) : Prop :=
  fst x < 2 ^ 32 /\ snd x < 2 ^ 32 /\ FEOX_DATA_START_BLOCK <= fst x /\ 0 < snd x /\ fst x + snd x <= total.

Lemma encode_entries_length exts : length (encode_entries exts) = (8 * length exts)%nat.
Proof. induction exts as [|[s n] t IH]; [reflexivity|]. cbn [encode_entries length]. rewrite !app_length, !le_bytes_length, IH. lia. Qed.

Lemma decode_entries_app total exts : forall pre post,
  Forall (ext_valid total) exts ->
  decode_entries (pre ++ encode_entries exts ++ post) (length pre) (length exts) total = Some exts.
Proof.
  induction exts as [|[s n] t IH]; intros pre post H; [reflexivity|].
  pose proof (Forall_inv H) as (S32 & N32 & Sd & Np & St). pose proof (Forall_inv_tail H) as Ht. cbn [fst snd] in *.
  cbn [length decode_entries encode_entries].
  set (d := pre ++ _).
  assert (U1 : sub d (length pre) 4 = le_bytes 4 s)
    by (unfold d; rewrite (sub_app_r pre _ _ 0) by lia; reflexivity).
  assert (U2 : sub d (length pre + 4) 4 = le_bytes 4 n)
    by (unfold d; rewrite (sub_app_r pre _ _ 4) by lia; reflexivity).
  rewrite (u32_at_le d _ s U1 S32), (u32_at_le d _ n U2 N32).
  destruct (N.ltb_spec total (s + n)); [lia|]. destruct (N.ltb_spec s FEOX_DATA_START_BLOCK); [lia|].
  destruct (N.eqb_spec n 0); [lia|]. cbn [orb].
  replace d with ((pre ++ le_bytes 4 s ++ le_bytes 4 n) ++ encode_entries t ++ post)
    by (unfold d; rewrite <- !app_assoc; reflexivity).
  replace (length pre + 8)%nat with (length (pre ++ le_bytes 4 s ++ le_bytes 4 n))
    by (rewrite !app_length, !le_bytes_length; lia).
  rewrite (IH _ post Ht). reflexivity.
Qed.

Lemma journal_size_fits count : (40 + 8 * N.to_nat count <= N.to_nat (journal_image_size count))%nat.
Proof.
  unfold journal_image_size, blocks_for, JOURNAL_HEADER_SIZE, JOURNAL_ENTRY_SIZE, FEOX_BLOCK_SIZE.
  assert (Z4 : 4096 <> 0) by lia.
  pose proof (N.div_mod (40 + count * 8 + 4096 - 1) 4096 Z4) as D.
  pose proof (N.mod_upper_bound (40 + count * 8 + 4096 - 1) 4096 Z4) as M.
  generalize dependent ((40 + count * 8 + 4096 - 1) / 4096). generalize dependent ((40 + count * 8 + 4096 - 1) mod 4096). intros m M q D. lia.
Qed.

(* The 40-byte record header with its two checksum fields as parameters: the encoder first lays
   it out with both fields zero, checksums that, and splices the checksum and its complement in. *)
Definition journal_head (c x g st count : N) : list N :=
  JOURNAL_MAGIC ++ le_bytes 4 JOURNAL_VERSION ++ le_bytes 4 c ++ le_bytes 8 g ++ le_bytes 4 st ++
  le_bytes 4 count ++ le_bytes 4 x ++ zeros 4.

(* the checksum does not see its own two fields *)
Lemma journal_checksum_head c x c' x' g st count t :
  journal_checksum (journal_head c x g st count ++ t) = journal_checksum (journal_head c' x' g st count ++ t).
Proof. reflexivity. Qed.

Lemma encode_journal_length g st exts :
  length (encode_journal g st exts) = N.to_nat (journal_image_size (N.of_nat (length exts))).
Proof.
  unfold encode_journal. rewrite !splice_length, app_length.
  set (raw := JOURNAL_MAGIC ++ _).
  assert (RL : length raw = (40 + 8 * length exts)%nat).
  { unfold raw. rewrite !app_length, !le_bytes_length, encode_entries_length. reflexivity. }
  unfold zeros. rewrite repeat_length. pose proof (journal_size_fits (N.of_nat (length exts))). lia.
Qed.

Lemma encode_journal_shape g st exts :
  exists c pad,
    encode_journal g st exts =
      journal_head c (N.lxor c MASK32) g st (N.of_nat (length exts)) ++ encode_entries exts ++ pad /\
    journal_checksum (encode_journal g st exts) = c /\ c < 2 ^ 32.
Proof.
  unfold encode_journal.
  set (n := N.of_nat (length exts)). set (raw := JOURNAL_MAGIC ++ _). set (pad := zeros _).
  set (c := journal_checksum (raw ++ pad)). exists c, pad.
  assert (E : splice (splice (raw ++ pad) 12 (le_bytes 4 c)) 32 (le_bytes 4 (N.lxor c MASK32)) =
              journal_head c (N.lxor c MASK32) g st n ++ encode_entries exts ++ pad) by reflexivity.
  split; [exact E|]. split; [rewrite E, (journal_checksum_head _ _ 0 0); reflexivity|].
  apply crc32c_lt. reflexivity.
Qed.

Lemma encode_journal_not_zero g st exts rest : all_zero (encode_journal g st exts ++ rest) = false.
Proof. destruct (encode_journal_shape g st exts) as (c & pad & -> & _). reflexivity. Qed.

Lemma decode_slot_of_layout c g state exts post total :
  let n := N.of_nat (length exts) in
  let d := journal_head c (N.lxor c MASK32) g state n ++ encode_entries exts ++ post in
  c < 2 ^ 32 -> journal_checksum (firstn (N.to_nat (journal_image_size n)) d) = c ->
  0 < g -> g < 2 ^ 64 ->
  (state = JOURNAL_CLEAR /\ exts = []) \/ (state = JOURNAL_ACTIVE /\ exts <> []) ->
  n <= ALLOCATION_JOURNAL_MAX_ENTRIES ->
  Forall (ext_valid total) exts -> no_overlap_sorted (sort_by_start exts) = true ->
  decode_slot d total = Some (g, exts).
Proof.
  intros n d C32 CK G0 G1 Hst Hcnt Hval Hov.
  assert (X32 : N.lxor c MASK32 < 2 ^ 32) by (apply lxor_lt; [exact C32|reflexivity]).
  assert (N32 : n < 2 ^ 32) by (unfold ALLOCATION_JOURNAL_MAX_ENTRIES in Hcnt; lia).
  assert (S32 : state < 2 ^ 32) by (destruct Hst as [[-> _]|[-> _]]; reflexivity).
  assert (SV : negb ((state =? JOURNAL_CLEAR) || (state =? JOURNAL_ACTIVE)) ||
               (state =? JOURNAL_CLEAR) && negb (n =? 0) || (state =? JOURNAL_ACTIVE) && (n =? 0) = false).
  { destruct Hst as [[-> ->]|[-> Hne]]; [reflexivity|].
    destruct (N.eqb_spec n 0) as [Z|]; [|reflexivity]. destruct exts; [contradiction|discriminate Z]. }
  unfold decode_slot.
  change (sub d 0 8) with JOURNAL_MAGIC. change (u32_at d 8) with JOURNAL_VERSION.
  rewrite (u32_at_le d 12 c), (u64_at_le d 16 g), (u32_at_le d 24 state), (u32_at_le d 28 n),
    (u32_at_le d 32 (N.lxor c MASK32)) by (reflexivity || assumption).
  change (JOURNAL_VERSION =? FULL_SLOT_CHECKSUM_VERSION) with false.
  destruct (N.eqb_spec g 0); [lia|]. destruct (N.ltb_spec ALLOCATION_JOURNAL_MAX_ENTRIES n); [lia|].
  cbn [orb]. rewrite list_eqb_refl, CK, !N.eqb_refl, SV. cbn [negb andb].
  change (N.to_nat JOURNAL_HEADER_SIZE) with (length (journal_head c (N.lxor c MASK32) g state n)).
  unfold n. rewrite Nat2N.id. unfold d. rewrite decode_entries_app by exact Hval. rewrite Hov. reflexivity.
Qed.

Theorem journal_record_roundtrip g state exts rest total :
  0 < g -> g < 2 ^ 64 ->
  (state = JOURNAL_CLEAR /\ exts = []) \/ (state = JOURNAL_ACTIVE /\ exts <> []) ->
  N.of_nat (length exts) <= ALLOCATION_JOURNAL_MAX_ENTRIES ->
  Forall (ext_valid total) exts -> no_overlap_sorted (sort_by_start exts) = true ->
  decode_slot (encode_journal g state exts ++ rest) total = Some (g, exts).
Proof.
  intros G0 G1 Hst Hcnt Hval Hov.
  destruct (encode_journal_shape g state exts) as (c & pad & E & CK & C32).
  assert (F : firstn (N.to_nat (journal_image_size (N.of_nat (length exts)))) (encode_journal g state exts ++ rest) =
              encode_journal g state exts) by (apply sub_0_app; symmetry; apply encode_journal_length).
  rewrite E, <- !app_assoc in F |- *.
  apply decode_slot_of_layout; try assumption. cbv zeta. rewrite F. rewrite <- E. exact CK.
Qed.

(* the journal slot of a quiescent file: the CLEAR record encode_clear writes, whatever the rest
   of the slot still holds from earlier, longer records *)
Theorem clear_journal_slot_roundtrip g rest total :
  0 < g -> g < 2 ^ 64 ->
  decode_slot (encode_journal g JOURNAL_CLEAR [] ++ rest) total = Some (g, []).
Proof.
  intros G0 G1. apply journal_record_roundtrip; try assumption; [left; split; reflexivity|discriminate|constructor|reflexivity].
Qed.

(* a journal that has never been written decodes to "clear, generation 0" *)
Theorem never_written_journal_is_clear s0 s1 total : all_zero s0 = true -> all_zero s1 = true ->
  decode_journal s0 s1 total = Some (0, 1, []).
Proof. intros H0 H1. unfold decode_journal. rewrite H0, H1. reflexivity. Qed.

(* both slots hold a readable record: the newer generation wins, slot 1 on a tie *)
Theorem newer_journal_record_wins s0 s1 total g0 e0 g1 e1 :
  all_zero s0 = false -> all_zero s1 = false ->
  decode_slot s0 total = Some (g0, e0) -> decode_slot s1 total = Some (g1, e1) ->
  decode_journal s0 s1 total = Some (if g1 <? g0 then (g0, 0, e0) else (g1, 1, e1)).
Proof. intros Z0 Z1 D0 D1. unfold decode_journal. rewrite Z0, Z1, D0, D1. destruct (g1 <? g0); reflexivity. Qed.

(* slot 0 holds a CLEAR record and slot 1 has never been written *)
Theorem journal_with_a_clear_record_decodes_clear g rest0 s1 total :
  0 < g -> g < 2 ^ 64 -> all_zero s1 = true ->
  decode_journal (encode_journal g JOURNAL_CLEAR [] ++ rest0) s1 total = Some (g, 0, []).
Proof.
  intros G0 G1 Z. unfold decode_journal. rewrite encode_journal_not_zero, Z.
  rewrite clear_journal_slot_roundtrip by assumption. reflexivity.
Qed.

(* both slots hold CLEAR records: whichever generation is newer, the journal is clear *)
Theorem journal_with_two_clear_records_decodes_clear g0 g1 rest0 rest1 total :
  0 < g0 -> g0 < 2 ^ 64 -> 0 < g1 -> g1 < 2 ^ 64 ->
  exists g slot, decode_journal (encode_journal g0 JOURNAL_CLEAR [] ++ rest0) (encode_journal g1 JOURNAL_CLEAR [] ++ rest1) total
                 = Some (g, slot, []).
Proof.
  intros A0 A1 B0 B1.
  rewrite (newer_journal_record_wins _ _ total g0 [] g1 [])
    by (apply encode_journal_not_zero || (apply clear_journal_slot_roundtrip; assumption)).
  destruct (g1 <? g0); eexists; eexists; reflexivity.
Qed.

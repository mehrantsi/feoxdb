(* The batched pass (Model/FailBatches.v): one batch is a pass of Model.FailPath.attempt over a
   queue cut to its first BATCH entries, the entries not yet attempted counted among the extents
   owned by somebody else. *)
From Coq Require Import List NArith Lia Arith Permutation.
From Feox Require Import Gen.Constants Model.FreeSpace Proofs.ListFacts Model.FailPath Proofs.FailPathProofs Model.FailBatches.
Import ListNotations.
Local Open Scope N_scope.

Lemma BATCH_pos : (0 < BATCH)%nat.
Proof. unfold BATCH, ALLOCATION_JOURNAL_MAX_ENTRIES. lia. Qed.

Lemma split_perm a rest D : Permutation (exts_of (a ++ rest) ++ D) (exts_of a ++ D ++ exts_of rest).
Proof. rewrite exts_of_app, <- app_assoc. apply Permutation_app_head, Permutation_app_comm. Qed.

(* FailPathProofs.FInv for the batched write path, with its second clause sharpened: what may
   hold unscrubbed data sits in the first batch *)
Record BatchInv (X : list (N * N)) (st : fstate) : Prop := {
  bv_core : Core (f_fs st) (f_usage st) (f_queue st) (map snd (f_durable st) ++ X);
  bv_may : forall x, In x (f_maydata st) -> In x (exts_of (firstn BATCH (f_queue st)));
  bv_dirty : forall e, In e (f_queue st) -> pe_res e <> None -> pe_dirty e = true
}.

Lemma BatchInv_FInv X st : BatchInv X st -> FInv X st.
Proof.
  intros [C M Dt]. split; [exact C| |exact Dt].
  intros x Hx. rewrite <- (firstn_skipn BATCH (f_queue st)), exts_of_app. apply in_or_app. left. exact (M x Hx).
Qed.

Definition ids (q : list pent) : list N := map pe_id q.

Lemma ids_step (A B P Q : list N) :
  (forall i, In i B <-> In i P \/ In i Q) -> forall i, In i (A ++ B) <-> In i (P ++ A) \/ In i Q.
Proof. intros F i. rewrite !in_app_iff, F. tauto. Qed.

Section WithOracle.
Variable fault : N -> bool.
Variable X : list (N * N).

(* cutting the first batch off, and putting back what it returns in front of the rest *)
Lemma batch_finv st : BatchInv X st ->
  FInv (X ++ exts_of (skipn BATCH (f_queue st))) (set_queue st (firstn BATCH (f_queue st))).
Proof.
  intros [C M Dt]. split; cbn [set_queue f_fs f_queue f_durable f_usage f_maydata].
  - rewrite <- (firstn_skipn BATCH (f_queue st)) in C. rewrite app_assoc.
    refine (Core_perm _ _ _ _ _ _ (split_perm _ _ _) _ C).
    intros e He. apply (co_flags C), in_or_app. left. exact He.
  - exact M.
  - intros e He. apply Dt. rewrite <- (firstn_skipn BATCH (f_queue st)). apply in_or_app. left. exact He.
Qed.

Lemma rejoin st st1 :
  BatchInv X st -> FInv (X ++ exts_of (skipn BATCH (f_queue st))) st1 -> (length (f_queue st1) <= BATCH)%nat ->
  BatchInv X (set_queue st1 (f_queue st1 ++ skipn BATCH (f_queue st))).
Proof.
  intros [C M Dt] [C1 M1 Dt1] Hl.
  assert (Rest : forall e, In e (skipn BATCH (f_queue st)) -> In e (f_queue st))
    by (intros e He; rewrite <- (firstn_skipn BATCH (f_queue st)); apply in_or_app; right; exact He).
  split; cbn [set_queue f_fs f_queue f_durable f_usage f_maydata].
  - rewrite app_assoc in C1. refine (Core_perm _ _ _ _ _ _ (Permutation_sym (split_perm _ _ _)) _ C1).
    intros e He. apply in_app_or in He. destruct He as [He|He]; [exact (co_flags C1 e He) | exact (co_flags C e (Rest e He))].
  - intros x Hx. rewrite firstn_app, (firstn_all2 _ Hl), exts_of_app. apply in_or_app. left. exact (M1 x Hx).
  - intros e He. apply in_app_or in He. destruct He as [He|He]; [exact (Dt1 e He) | exact (Dt e (Rest e He))].
Qed.

Lemma pass_spec fuel : forall st st' r,
  BatchInv X st -> (length (f_queue st) < fuel)%nat -> pass fault fuel st = (st', r) ->
  BatchInv X st' /\
  (exists pub, f_durable st' = pub ++ f_durable st /\
               (forall i, In i (ids (f_queue st)) <-> In i (map fst pub) \/ In i (ids (f_queue st'))) /\
               (length pub + length (f_queue st') = length (f_queue st))%nat) /\
  (r = ROk -> f_queue st' = []) /\
  (f_poison st = true -> f_poison st' = true).
Proof.
  induction fuel as [|k IH]; intros st st' r I Hl H; [lia|].
  cbn [pass] in H. pose proof (batch_finv st I) as FI. pose proof (rejoin st) as Back.
  destruct (f_queue st) as [|e0 q0] eqn:Q.
  - inversion H; subst st' r. rewrite Q. split; [exact I|]. split; [|auto].
    exists []. split; [reflexivity|]. split; [cbn [map In]; tauto | reflexivity].
  - (* the queue is kept abstract from here on: over a visible cons, tactics that normalise
       (inversion, simpl) step skipn BATCH through it with BATCH unfolded to a unary numeral *)
    assert (Hq : (0 < length (e0 :: q0))%nat) by (cbn [length]; lia).
    remember (e0 :: q0) as q eqn:Eq. clear Eq e0 q0.
    destruct (attempt fault (set_queue st (firstn BATCH q))) as [st1 r1] eqn:EA.
    destruct (attempt_spec fault _ _ st1 r1 FI EA) as (I1 & Po1 & Out).
    cbn [set_queue f_queue f_durable f_poison] in Po1, Out.
    assert (Hids : ids q = ids (firstn BATCH q) ++ ids (skipn BATCH q))
      by (unfold ids; rewrite <- map_app, firstn_skipn; reflexivity).
    assert (Hlen : (length (firstn BATCH q) + length (skipn BATCH q) = length q)%nat)
      by (rewrite <- app_length, firstn_skipn; reflexivity).
    assert (Lq : map pe_id (f_queue st1) = map pe_id (firstn BATCH q) -> length (f_queue st1) = length (firstn BATCH q))
      by (intros E; rewrite <- (map_length pe_id (f_queue st1)), E; apply map_length).
    destruct Out as [(-> & Q1 & pub1 & D1 & F1)|(N1 & D1 & Id1 & _)].
    + (* the batch went through: go on with the rest *)
      specialize (Back st1 I I1). rewrite Q1 in Back. specialize (Back (Nat.le_0_l _)). cbn [app] in Back.
      assert (L1 : length pub1 = length (firstn BATCH q)) by (rewrite <- (map_length fst pub1), F1; apply map_length).
      assert (Hl2 : (length (f_queue (set_queue st1 (skipn BATCH q))) < k)%nat).
      { cbn [set_queue f_queue]. pose proof BATCH_pos. rewrite firstn_length in Hlen. lia. }
      destruct (IH _ _ _ Back Hl2 H) as (I' & (pub2 & D2 & F2 & L2) & Ok2 & Po2).
      cbn [set_queue f_queue f_durable f_poison] in D2, F2, L2, Po2.
      split; [exact I'|]. split; [|auto].
      exists (pub2 ++ pub1). split; [rewrite D2, D1; apply app_assoc|]. split.
      * rewrite Hids, map_app, F1. apply ids_step, F2.
      * rewrite app_length. lia.
    + (* the batch failed: what it gives back, then everything not yet attempted *)
      assert (H' : (set_queue st1 (f_queue st1 ++ skipn BATCH q), r1) = (st', r)) by (destruct r1; congruence).
      apply pair_equal_spec in H'. destruct H' as [<- <-]. cbn [set_queue f_queue f_durable f_poison].
      split; [apply (Back st1 I I1); rewrite (Lq Id1); apply firstn_le_length|]. split; [|split; [contradiction | exact Po1]].
      exists []. split; [exact D1|]. split.
      * intros i. rewrite Hids. unfold ids. rewrite map_app, Id1. cbn [map In]. tauto.
      * rewrite app_length, (Lq Id1). exact Hlen.
Qed.

End WithOracle.

Lemma penqueue_inv X st id blocks : BatchInv X st -> BatchInv X (enqueue st id blocks).
Proof.
  intros I. pose proof (enqueue_inv X st id blocks (BatchInv_FInv X st I)) as F.
  split; [exact (fv_core _ _ F)| |exact (fv_dirty _ _ F)].
  unfold enqueue. cbn [f_maydata f_queue]. intros x Hx.
  rewrite firstn_app, exts_of_app. apply in_or_app. left. exact (bv_may _ _ I x Hx).
Qed.

Lemma pflush_spec fault X st st' r : BatchInv X st -> pflush fault st = (st', r) ->
  BatchInv X st' /\
  (r = ROk -> f_queue st' = [] /\ f_poison st' = false) /\
  (exists pub, f_durable st' = pub ++ f_durable st /\
               (forall i, In i (ids (f_queue st)) <-> In i (map fst pub) \/ In i (ids (f_queue st'))) /\
               (length pub + length (f_queue st') = length (f_queue st))%nat) /\
  (f_poison st = true -> f_poison st' = true /\ r <> ROk).
Proof.
  intros I H. change (pflush fault st) with (finish fault (pass_all fault st)) in H. unfold pass_all in H.
  destruct (pass fault (S (length (f_queue st))) st) as [st1 r1] eqn:EP.
  destruct (pass_spec fault X _ st st1 r1 I (Nat.lt_succ_diag_r _) EP) as ([C1 M1 Dt1] & Pub & Ok1 & Po1).
  destruct (finish_spec _ _ _ _ _ H) as ([c ->] & Ok & No).
  cbn [upd_calls f_fs f_queue f_durable f_usage f_poison f_calls f_maydata].
  split; [split; assumption|]. split; [intuition|]. split; [exact Pub|].
  (* finish answers ROk only for a store that is not poisoned *)
  intros Hp. split; [exact (Po1 Hp)|]. intros Hr. destruct (Ok Hr) as [_ Po]. rewrite (Po1 Hp) in Po. discriminate.
Qed.

Definition pcall_step (fault : N -> bool) (st : fstate) (c : fcall) : fstate :=
  match c with
  | CInsert id blocks => if 0 <? blocks then enqueue st id blocks else st
  | CFlush => fst (pflush fault st)
  end.

Definition pcalls (fault : N -> bool) (st : fstate) (cs : list fcall) : fstate := fold_left (pcall_step fault) cs st.

Lemma pcalls_reach fault d f cs : d < U64 -> initialize d = FOk f -> BatchInv [] (pcalls fault (finit f) cs).
Proof.
  intros Hd Hi. unfold pcalls. apply (fold_left_inv _ (BatchInv [])).
  - intros s [id blocks|] I; cbn [pcall_step].
    + destruct (0 <? blocks); [apply penqueue_inv|]; exact I.
    + destruct (pflush fault s) as [s' r] eqn:EF. exact (proj1 (pflush_spec fault [] s s' r I EF)).
  - destruct (finit_inv d f Hd Hi) as [C _ Dt]. split; [exact C | intros x [] | exact Dt].
Qed.

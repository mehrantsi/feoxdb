(* C10 (file layout): an allocation-journal image never leaves its slot.  The encoder's image for
   at most ALLOCATION_JOURNAL_MAX_ENTRIES extents is at most ALLOCATION_JOURNAL_SLOT_BLOCKS blocks
   long, so writing it changes blocks of that slot only: the other slot, both metadata copies and
   the data area keep every byte.  And what the decoder hands to the replay: extents of the data
   area, taken from the record of the slot it reports. *)
From Coq Require Import List NArith Bool Lia Arith.
From Feox Require Import Gen.Constants Model.Bytes Model.Codec Model.MetaJournal Model.Recovery
                         Proofs.CodecProofs Proofs.MetaJournalProofs Proofs.RecoveryProofs.
Import ListNotations.
Local Open Scope N_scope.

Lemma journal_blocks_bound count : count <= ALLOCATION_JOURNAL_MAX_ENTRIES ->
  blocks_for (JOURNAL_HEADER_SIZE + count * JOURNAL_ENTRY_SIZE) <= ALLOCATION_JOURNAL_SLOT_BLOCKS.
Proof.
  unfold blocks_for, JOURNAL_HEADER_SIZE, JOURNAL_ENTRY_SIZE, FEOX_BLOCK_SIZE, ALLOCATION_JOURNAL_MAX_ENTRIES,
    ALLOCATION_JOURNAL_SLOT_BLOCKS.
  intros H. apply N.lt_succ_r, N.div_lt_upper_bound; lia.
Qed.

Theorem journal_image_fits_its_slot g st exts :
  N.of_nat (length exts) <= ALLOCATION_JOURNAL_MAX_ENTRIES ->
  (length (encode_journal g st exts) <= N.to_nat ALLOCATION_JOURNAL_SLOT_BLOCKS * BLOCK)%nat /\
  (Nat.div (length (encode_journal g st exts)) BLOCK <= N.to_nat ALLOCATION_JOURNAL_SLOT_BLOCKS)%nat.
Proof.
  intros H. rewrite encode_journal_length. unfold journal_image_size.
  pose proof (journal_blocks_bound _ H) as B. set (q := blocks_for _) in *.
  unfold BLOCK. split.
  - rewrite N2Nat.inj_mul. apply Nat.mul_le_mono_r. lia.
  - rewrite N2Nat.inj_mul, Nat.div_mul by (vm_compute; discriminate). lia.
Qed.

Theorem journal_slots_lie_between_the_metadata_copies slot :
  slot < ALLOCATION_JOURNAL_SLOTS ->
  let first := ALLOCATION_JOURNAL_START_BLOCK + slot * ALLOCATION_JOURNAL_SLOT_BLOCKS in
  FEOX_METADATA_BLOCK < first /\ first + ALLOCATION_JOURNAL_SLOT_BLOCKS <= FEOX_METADATA_BACKUP_BLOCK /\
  FEOX_METADATA_BACKUP_BLOCK < FEOX_DATA_START_BLOCK /\
  JOURNAL_SLOT_SIZE = ALLOCATION_JOURNAL_SLOT_BLOCKS * FEOX_BLOCK_SIZE /\
  ALLOCATION_JOURNAL_BLOCKS = ALLOCATION_JOURNAL_SLOTS * ALLOCATION_JOURNAL_SLOT_BLOCKS.
Proof.
  unfold ALLOCATION_JOURNAL_START_BLOCK, ALLOCATION_JOURNAL_SLOTS, ALLOCATION_JOURNAL_SLOT_BLOCKS, ALLOCATION_JOURNAL_BLOCKS,
    FEOX_METADATA_BLOCK, FEOX_METADATA_BACKUP_BLOCK, FEOX_DATA_START_BLOCK, JOURNAL_SLOT_SIZE, FEOX_BLOCK_SIZE.
  lia.
Qed.

Lemma journal_write_agree img slot g st exts :
  N.of_nat (length exts) <= ALLOCATION_JOURNAL_MAX_ENTRIES ->
  let first := N.to_nat (ALLOCATION_JOURNAL_START_BLOCK + slot * ALLOCATION_JOURNAL_SLOT_BLOCKS) in
  agree_on (fun k => (k < first \/ first + N.to_nat ALLOCATION_JOURNAL_SLOT_BLOCKS <= k)%nat)
           img (write_journal img slot g st exts).
Proof.
  intros Hc first. eapply agree_on_weaken; [|apply set_blocks_agree].
  intros k Hk. cbv beta. rewrite chunk_blocks_length.
  pose proof (proj2 (journal_image_fits_its_slot g st exts Hc)). fold first. lia.
Qed.

Theorem journal_write_stays_in_its_slot img slot g st exts k :
  slot < ALLOCATION_JOURNAL_SLOTS -> N.of_nat (length exts) <= ALLOCATION_JOURNAL_MAX_ENTRIES ->
  (N.to_nat FEOX_METADATA_BACKUP_BLOCK <= length img)%nat ->
  let first := N.to_nat (ALLOCATION_JOURNAL_START_BLOCK + slot * ALLOCATION_JOURNAL_SLOT_BLOCKS) in
  length (write_journal img slot g st exts) = length img /\
  ((k < first \/ first + N.to_nat ALLOCATION_JOURNAL_SLOT_BLOCKS <= k)%nat ->
   nth k (write_journal img slot g st exts) [] = nth k img []).
Proof.
  intros _ Hc _ first. destruct (journal_write_agree img slot g st exts Hc) as [L H]. auto.
Qed.

(* a journal that names extents took them from the record of the slot it reports *)
Lemma decode_journal_cases s0 s1 total g slot e :
  decode_journal s0 s1 total = Some (g, slot, e) ->
  e = [] \/
  (slot = 0 /\ all_zero s0 = false /\ decode_slot s0 total = Some (g, e)) \/
  (slot = 1 /\ all_zero s1 = false /\ decode_slot s1 total = Some (g, e)).
Proof.
  unfold decode_journal. cbv zeta.
  destruct (all_zero s0) eqn:Z0; [|destruct (decode_slot s0 total) as [[g0 e0]|] eqn:D0];
    (destruct (all_zero s1) eqn:Z1; [|destruct (decode_slot s1 total) as [[g1 e1]|] eqn:D1]);
    try destruct (g1 <? g0); intros [= <- <- <-]; auto.
Qed.

Lemma decode_entries_in_data total : forall count d off exts,
  decode_entries d off count total = Some exts -> in_data exts.
Proof.
  induction count as [|k IH]; intros d off exts H; cbn [decode_entries] in H.
  - injection H as <-. constructor.
  - cbv zeta in H. destruct (_ || _ || _) eqn:G; [discriminate|].
    destruct (decode_entries d (off + 8) k total) as [t|] eqn:E; [|discriminate]. injection H as <-.
    rewrite !orb_false_iff, !N.ltb_ge in G. destruct G as [[_ G] _]. constructor; [exact G|exact (IH _ _ _ E)].
Qed.

Lemma decode_slot_in_data d total g exts : decode_slot d total = Some (g, exts) -> in_data exts.
Proof.
  unfold decode_slot. destruct (negb (list_eqb _ _)); [discriminate|].
  destruct (negb _); [discriminate|]. cbv zeta.
  destruct (_ || _ || _ || _ || _); [discriminate|].
  destruct (negb (_ && _)); [discriminate|].
  destruct (decode_entries _ _ _ _) as [e|] eqn:E; [|discriminate].
  destruct (no_overlap_sorted _); [|discriminate]. intros [= _ <-]. exact (decode_entries_in_data _ _ _ _ _ E).
Qed.

Lemma decode_journal_in_data s0 s1 total g slot exts :
  decode_journal s0 s1 total = Some (g, slot, exts) -> in_data exts.
Proof.
  intros H. destruct (decode_journal_cases _ _ _ _ _ _ H) as [->|[(_ & _ & D)|(_ & _ & D)]];
    [constructor|exact (decode_slot_in_data _ _ _ _ D)..].
Qed.

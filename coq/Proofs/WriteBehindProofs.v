(* Every shard has exactly one owner; the periodic coordinator wakes the owner of every non-empty
   shard; a woken worker's pass empties its shards: so whatever is queued at a tick is written
   once the workers woken by that tick have run -- one flush interval plus their I/O time. *)
From Coq Require Import List Arith Bool Lia.
From Feox Require Import Model.WriteBehind.
Import ListNotations.

Lemma stride_in fuel : forall cur W n s,
  In s (stride fuel cur W n) <-> exists j, j < fuel /\ s = cur + j * W /\ s < n.
Proof.
  induction fuel as [|f IH]; intros cur W n s; cbn [stride].
  - split; [intros [] | intros (j & H & _); lia].
  - destruct (Nat.ltb_spec cur n) as [E|E].
    + cbn [In]. rewrite IH. split.
      * intros [<-|(j & Hj & -> & Hs)]; [exists 0 | exists (S j)]; lia.
      * intros ([|j] & Hj & -> & Hs); [left; lia | right; exists j; lia].
    + split; [intros [] | intros (j & _ & -> & Hs); lia].
Qed.

(* worker w (< W) owns exactly the shards congruent to w modulo W *)
Theorem shards_of_spec W S w s :
  0 < W -> w < W -> (In s (shards_of W S w) <-> s < S /\ s mod W = w).
Proof.
  intros HW Hw. unfold shards_of. rewrite stride_in. split.
  - intros (j & _ & -> & Hs). split; [exact Hs|]. rewrite Nat.mod_add by lia. apply Nat.mod_small. exact Hw.
  - intros [Hs <-]. pose proof (Nat.div_mod s W ltac:(lia)) as Hd.
    exists (s / W). split; [nia|]. split; [lia | exact Hs].
Qed.

Theorem every_shard_has_exactly_one_owner W S s :
  0 < W -> s < S ->
  In s (shards_of W S (s mod W)) /\ s mod W < W /\
  forall w, w < W -> In s (shards_of W S w) -> w = s mod W.
Proof.
  intros HW Hs. assert (Hm : s mod W < W) by (apply Nat.mod_upper_bound; lia).
  split; [apply shards_of_spec; auto|].
  split; [exact Hm|]. intros w Hw [_ <-]%shards_of_spec; auto.
Qed.

Lemma owner_sees W S s (q : nat -> bool) :
  0 < W -> s < S -> q s = true -> existsb q (shards_of W S (s mod W)) = true.
Proof.
  intros HW Hs Hq. apply existsb_exists. exists s.
  split; [apply (every_shard_has_exactly_one_owner W S s HW Hs) | exact Hq].
Qed.

Lemma nth_upd_same {A} (l : list A) i f d : i < length l -> nth i (upd i f l) d = f (nth i l d).
Proof. revert i. induction l as [|x t IH]; intros [|i] H; cbn in *; try lia; [reflexivity | apply IH; lia]. Qed.
Lemma nth_upd_other {A} (l : list A) i j f d : i <> j -> nth j (upd i f l) d = nth j l d.
Proof. revert i j. induction l as [|x t IH]; intros [|i] [|j] H; cbn; try reflexivity; try congruence. apply IH. congruence. Qed.
Lemma length_upd {A} (l : list A) i f : length (upd i f l) = length l.
Proof. revert i. induction l as [|x t IH]; intros [|i]; cbn; try reflexivity. rewrite IH. reflexivity. Qed.

(* resetting an entry to the default needs no bound on the index *)
Lemma nth_upd_default {A} (l : list A) i j d : nth j (upd i (fun _ => d) l) d = if i =? j then d else nth j l d.
Proof.
  destruct (Nat.eqb_spec i j) as [->|Hne]; [|apply nth_upd_other; exact Hne].
  destruct (Nat.lt_ge_cases j (length l)) as [Hl|Hl]; [apply nth_upd_same; exact Hl|].
  apply nth_overflow. rewrite length_upd. exact Hl.
Qed.

Lemma clear_all_length ss : forall b, length (clear_all ss b) = length b.
Proof. induction ss as [|s t IH]; intros b; cbn; [reflexivity|]. rewrite IH. apply length_upd. Qed.

Lemma clear_all_out ss : forall b s, ~ In s ss -> nth s (clear_all ss b) [] = nth s b [].
Proof.
  induction ss as [|x t IH]; intros b s Hn; cbn; [reflexivity|]. apply not_in_cons in Hn as [Hx Ht].
  rewrite IH by exact Ht. rewrite nth_upd_default. destruct (Nat.eqb_spec x s); [congruence | reflexivity].
Qed.

Lemma clear_all_in ss : forall b s, In s ss -> nth s (clear_all ss b) [] = [].
Proof.
  induction ss as [|x t IH]; intros b s Hin; [contradiction|]. cbn.
  destruct (in_dec Nat.eq_dec s t) as [Ht|Ht]; [exact (IH _ s Ht)|].
  destruct Hin as [->|Hin]; [|contradiction].
  rewrite clear_all_out by exact Ht. rewrite nth_upd_default, Nat.eqb_refl. reflexivity.
Qed.

(* a worker's pass leaves its shards empty *)
Theorem run_empties_own_shards W S st w s :
  In s (shards_of W S w) -> nth s (bufs (wstep W S st (Run w))) [] = [].
Proof. intros Hin. exact (clear_all_in _ _ s Hin). Qed.

Lemma nth_map_seq {A} (f : nat -> A) n i d : i < n -> nth i (map f (seq 0 n)) d = f i.
Proof.
  intros H. rewrite (nth_indep _ d (f 0)) by (rewrite map_length, seq_length; exact H).
  rewrite (map_nth f (seq 0 n) 0 i). rewrite seq_nth by exact H. reflexivity.
Qed.

(* the coordinator wakes the owner of every non-empty shard, and worker 0 for pending retirements *)
Theorem tick_wakes_owner W S st s x :
  0 < W -> s < S -> In x (nth s (bufs st) []) ->
  nth (s mod W) (woken (wstep W S st Tick)) false = true.
Proof.
  intros HW Hs Hx. cbn. rewrite nth_map_seq by (apply Nat.mod_upper_bound; lia).
  unfold wants. rewrite (owner_sees W S s _ HW Hs); [apply orb_true_r|].
  destruct (nth s (bufs st) []); [contradiction | reflexivity].
Qed.

Theorem tick_wakes_worker0_for_retirements W S st x :
  0 < W -> In x (retq st) -> nth 0 (woken (wstep W S st Tick)) false = true.
Proof.
  intros HW Hx. cbn.
  rewrite nth_map_seq by exact HW.
  apply orb_true_iff. right. unfold wants. apply orb_true_iff. right.
  destruct (retq st); [contradiction | reflexivity].
Qed.

Lemma step_adds W S st e s x :
  In x (nth s (bufs (wstep W S st e)) []) -> In x (nth s (bufs st) []) \/ e = Add s x.
Proof.
  destruct e as [s' x'|x'| |w]; cbn; intros H; auto.
  - destruct (Nat.eq_dec s' s) as [->|Hne]; [|rewrite nth_upd_other in H by exact Hne; auto].
    destruct (Nat.lt_ge_cases s (length (bufs st))) as [Hl|Hl].
    + rewrite nth_upd_same in H by exact Hl. apply in_app_or in H. destruct H as [H|[<-|[]]]; auto.
    + rewrite nth_overflow in H by (rewrite length_upd; exact Hl). contradiction.
  - left. destruct (in_dec Nat.eq_dec s (shards_of W S w)) as [Hi|Hi].
    + rewrite clear_all_in in H by exact Hi. contradiction.
    + rewrite clear_all_out in H by exact Hi. exact H.
Qed.

Lemma run_no_add W S evs : forall st s x,
  ~ In (Add s x) evs -> ~ In x (nth s (bufs st) []) -> ~ In x (nth s (bufs (wrun W S st evs)) []).
Proof.
  unfold wrun. induction evs as [|e t IH]; intros st s x Hna Hn; cbn; [exact Hn|].
  apply not_in_cons in Hna as [He Ht]. apply IH; [exact Ht|]. intros [H1| ->]%step_adds; auto.
Qed.

(* whatever is queued in a shard is gone once the shard's owner has run, however the
   other events interleave, unless the same entry is queued again *)
Theorem queued_entry_is_flushed_by_owner W S st s x evs1 evs2 :
  0 < W -> s < S -> S = length (bufs st) ->
  ~ In (Add s x) (evs1 ++ Run (s mod W) :: evs2) ->
  ~ In x (nth s (bufs (wrun W S st (evs1 ++ Run (s mod W) :: evs2))) []).
Proof.
  intros HW Hs _ Hna. unfold wrun. rewrite fold_left_app. cbn [fold_left].
  apply run_no_add.
  - intros H. apply Hna. apply in_or_app. right. right. exact H.
  - rewrite run_empties_own_shards; [intros []|]. apply (every_shard_has_exactly_one_owner W S s HW Hs).
Qed.

(* retirements queued before worker 0's next pass are gone after it *)
Theorem run0_drains_retirements W S st : retq (wstep W S st (Run 0)) = [].
Proof. reflexivity. Qed.

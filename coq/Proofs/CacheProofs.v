(* Proofs about Model/Cache.v: the reported memory is the total size of the held entries after
   every operation sequence; one entry per key; an explicit remove is never followed by a hit. *)
From Coq Require Import List NArith Bool Lia Permutation.
From Feox Require Import Model.Bytes Model.Cache Proofs.BytesProofs Proofs.ListFacts.
Import ListNotations.
Local Open Scope N_scope.

Fixpoint bsum (b : list centry) : N := match b with [] => 0 | e :: t => ce_size e + bsum t end.
Fixpoint total (l : list (N * list centry)) : N := match l with [] => 0 | (_, b) :: t => bsum b + total t end.

Fixpoint sorted_idx (l : list (N * list centry)) : Prop :=
  match l with
  | [] => True
  | (i, _) :: t => (forall j b, In (j, b) t -> i < j) /\ sorted_idx t
  end.

Fixpoint keys_unique (b : list centry) : Prop :=
  match b with
  | [] => True
  | e :: t => (forall e', In e' t -> list_eqb (ce_key e') (ce_key e) = false) /\ keys_unique t
  end.

Record CInv (c : cache) : Prop := {
  ci_sorted : sorted_idx (buckets c);
  ci_mem : cmem c = total (buckets c);
  ci_unique : forall i b, In (i, b) (buckets c) -> keys_unique b
}.

Lemma bget_In i l b : sorted_idx l -> In (i, b) l -> bget i l = b.
Proof.
  induction l as [|[j x] t IH]; cbn [sorted_idx In bget]; [tauto|]. intros (Hlt & Hs) [[= -> ->]|Hin].
  - rewrite N.eqb_refl. reflexivity.
  - specialize (Hlt _ _ Hin). destruct (N.eqb_spec j i); [lia|]. destruct (N.ltb_spec i j); [lia|auto].
Qed.

Lemma bget_cases i l : bget i l = [] \/ In (i, bget i l) l.
Proof.
  induction l as [|[j x] t IH]; cbn [bget In]; [auto|].
  destruct (N.eqb_spec j i) as [->|_]; [auto|]. destruct (i <? j); tauto.
Qed.

Lemma bsum_le_total i b l : In (i, b) l -> bsum b <= total l.
Proof.
  induction l as [|[j x] t IH]; cbn [In total]; [tauto|]. intros [[= -> ->]|H%IH]; lia.
Qed.

Lemma bget_bsum_le i l : bsum (bget i l) <= total l.
Proof. destruct (bget_cases i l) as [->|H]; [apply N.le_0_l | exact (bsum_le_total _ _ _ H)]. Qed.

Lemma bget_unique i l : (forall j b, In (j, b) l -> keys_unique b) -> keys_unique (bget i l).
Proof. intros U. destruct (bget_cases i l) as [->|H]; [exact I | exact (U _ _ H)]. Qed.

Lemma bget_above j l : (forall k b, In (k, b) l -> j < k) -> bget j l = [].
Proof.
  destruct l as [|[k y] t]; cbn [bget]; auto. intros H. specialize (H k y (or_introl eq_refl)).
  destruct (N.eqb_spec k j); [lia|]. destruct (N.ltb_spec j k); [auto|lia].
Qed.

Lemma bget_bset i b l j : sorted_idx l -> bget j (bset i b l) = if j =? i then b else bget j l.
Proof.
  induction l as [|[k y] t IH]; cbn [sorted_idx bset].
  - intros _. destruct b; cbn [bget]; rewrite ?(N.eqb_sym i j); destruct (j =? i); try reflexivity.
    destruct (j <? i); reflexivity.
  - intros (Hlt & Hs). destruct (N.eqb_spec k i) as [->|NK]; [|destruct (N.ltb_spec i k)].
    + destruct b; cbn [bget]; rewrite (N.eqb_sym i j); (destruct (N.eqb_spec j i) as [E|NJ]; [subst j|]); try reflexivity.
      * apply bget_above. exact Hlt.
      * destruct (N.ltb_spec j i); [|reflexivity]. apply bget_above. intros k x Hin. specialize (Hlt _ _ Hin). lia.
    + destruct b; cbn [bget]; rewrite ?(N.eqb_sym i j); (destruct (N.eqb_spec j i) as [E|NJ]; [subst j|]); try reflexivity.
      * destruct (N.eqb_spec k i); [lia|]. destruct (N.ltb_spec i k); [reflexivity|lia].
      * destruct (N.ltb_spec j i); [|reflexivity]. destruct (N.eqb_spec k j); [lia|]. destruct (N.ltb_spec j k); [reflexivity|lia].
    + cbn [bget]. rewrite (IH Hs). destruct (N.eqb_spec j i) as [E|NJ]; [subst j|reflexivity].
      destruct (N.eqb_spec k i); [lia|]. destruct (N.ltb_spec i k); [lia|reflexivity].
Qed.

Lemma total_bset i b l : sorted_idx l -> total (bset i b l) + bsum (bget i l) = total l + bsum b.
Proof.
  induction l as [|[j x] t IH]; cbn [sorted_idx bset bget]; intros Hs.
  - destruct b; cbn [total bsum]; lia.
  - destruct Hs as (_ & Hs). destruct (j =? i); [|destruct (i <? j)].
    + (* j is bucket i: replaced, or dropped when b is empty *)
      destruct b; cbn [total bsum]; lia.
    + (* bucket i was absent: b is inserted before j, unless empty *)
      destruct b; cbn [total bsum]; lia.
    + cbn [total]. specialize (IH Hs). lia.
Qed.

Lemma In_bset {i b l p} : In p (bset i b l) -> p = (i, b) \/ In p l.
Proof.
  induction l as [|[k y] t IH]; cbn [bset].
  - destruct b; cbn [In]; intuition.
  - destruct (k =? i); [|destruct (i <? k)]; [destruct b; cbn [In]; intuition ..|].
    cbn [In]. intros [H|H]; [auto|]. destruct (IH H); auto.
Qed.

Lemma sorted_bset i b l : sorted_idx l -> sorted_idx (bset i b l).
Proof.
  induction l as [|[k y] t IH]; cbn [sorted_idx bset]; intros Hs.
  - destruct b; cbn [sorted_idx]; auto. split; auto. intros ? ? [].
  - destruct Hs as (Hlt & Hs). destruct (N.eqb_spec k i) as [->|NE]; [|destruct (N.ltb_spec i k)].
    + destruct b; cbn [sorted_idx]; auto.
    + destruct b; cbn [sorted_idx]; auto. split; [|split; auto].
      intros j x [[= <- <-]|Hin]; auto. specialize (Hlt _ _ Hin). lia.
    + cbn [sorted_idx]. split; auto. intros j x Hin.
      destruct (In_bset Hin) as [[= -> ->]|Hin']; [lia|eauto].
Qed.

(* [ksub b' b]: b' is b with some entries dropped and others exchanged for entries with the same
   key, which is all that touch, replace, remove and the CLOCK sweep do to a bucket *)
Inductive ksub : list centry -> list centry -> Prop :=
| ksub_nil : ksub [] []
| ksub_drop e b' b : ksub b' b -> ksub b' (e :: b)
| ksub_keep e' e b' b : ce_key e' = ce_key e -> ksub b' b -> ksub (e' :: b') (e :: b).

Local Hint Constructors ksub : core.

Lemma ksub_refl b : ksub b b.
Proof. induction b; auto. Qed.
Local Hint Resolve ksub_refl : core.

Lemma ksub_In {b' b} : ksub b' b -> forall e', In e' b' -> exists e, In e b /\ ce_key e = ce_key e'.
Proof.
  induction 1 as [|e b' b _ IH|e1 e b' b K _ IH]; cbn [In]; intros e' Hin.
  - destruct Hin.
  - destruct (IH _ Hin) as (x & A & B). eauto.
  - destruct Hin as [<-|Hin]; [eauto|]. destruct (IH _ Hin) as (x & A & B). eauto.
Qed.

Lemma ksub_unique {b' b} : ksub b' b -> keys_unique b -> keys_unique b'.
Proof.
  induction 1 as [|e b' b _ IH|e1 e b' b K S IH]; cbn [keys_unique]; [auto|intros (_ & U); auto|].
  intros (H1 & U). split; [|auto]. intros e' Hin. destruct (ksub_In S _ Hin) as (x & A & B).
  rewrite K, <- B. auto.
Qed.

Lemma find_entry_In k b e : find_entry k b = Some e -> In e b /\ list_eqb (ce_key e) k = true.
Proof.
  induction b as [|x t IH]; cbn [find_entry In]; [discriminate|].
  destruct (list_eqb (ce_key x) k) eqn:E; [intros [= <-]; auto|intros H; destruct (IH H); auto].
Qed.

Lemma bsum_touch k b : bsum (touch k b) = bsum b.
Proof. induction b as [|x t IH]; cbn [touch bsum]; auto. destruct (list_eqb _ _); cbn [bsum ce_size]; lia. Qed.

Lemma touch_ksub k b : ksub (touch k b) b.
Proof.
  induction b as [|x t IH]; cbn [touch]; [auto|]. destruct (list_eqb _ _); auto.
Qed.

Lemma bsum_remove k b e : find_entry k b = Some e -> bsum (remove_entry k b) + ce_size e = bsum b.
Proof.
  induction b as [|x t IH]; cbn [find_entry remove_entry bsum]; [discriminate|].
  destruct (list_eqb (ce_key x) k); [intros [= <-]; lia|]. intros H%IH. cbn [bsum]. lia.
Qed.

Lemma remove_ksub k b : ksub (remove_entry k b) b.
Proof.
  induction b as [|x t IH]; cbn [remove_entry]; [auto|]. destruct (list_eqb _ _); auto.
Qed.

Lemma find_after_remove k b : keys_unique b -> find_entry k (remove_entry k b) = None.
Proof.
  induction b as [|x t IH]; cbn [keys_unique remove_entry]; auto. intros (H1 & H2).
  destruct (list_eqb (ce_key x) k) eqn:E; [|cbn [find_entry]; rewrite E; auto].
  (* the removed entry was the only one with this key *)
  apply list_eqb_eq in E. subst k. clear -H1. induction t as [|y t IH]; cbn [find_entry]; auto.
  rewrite (H1 y (or_introl eq_refl)). apply IH. intros; apply H1; right; auto.
Qed.

Lemma bsum_replace k b e e' : find_entry k b = Some e -> bsum (replace_entry k e' b) + ce_size e = bsum b + ce_size e'.
Proof.
  induction b as [|x t IH]; cbn [find_entry replace_entry bsum]; [discriminate|].
  destruct (list_eqb (ce_key x) k); [intros [= <-]|intros H%IH]; cbn [bsum]; lia.
Qed.

Lemma replace_ksub k e' b : ce_key e' = k -> ksub (replace_entry k e' b) b.
Proof.
  intros K. induction b as [|x t IH]; cbn [replace_entry]; [auto|].
  destruct (list_eqb (ce_key x) k) eqn:E; [|auto]. apply list_eqb_eq in E. apply ksub_keep; [congruence|auto].
Qed.

Lemma bsum_app a b : bsum (a ++ b) = bsum a + bsum b.
Proof. induction a; cbn [app bsum]; lia. Qed.

Lemma unique_app_new b e : keys_unique b -> find_entry (ce_key e) b = None -> keys_unique (b ++ [e]).
Proof.
  induction b as [|x t IH]; cbn [keys_unique find_entry app]; [intros _ _; split; [intros ? []|exact I]|]. intros (H1 & H2).
  destruct (list_eqb (ce_key x) (ce_key e)) eqn:E; [discriminate|]. intros HF. split; auto.
  intros e' Hin. apply in_app_or in Hin. destruct Hin as [Hin|[<-|[]]]; auto. rewrite list_eqb_sym. exact E.
Qed.

Lemma sweep_bucket_acct {b} : forall {m tg ev b' m' ev' d},
  bsum b <= m -> sweep_bucket b m tg ev = (b', m', ev', d) ->
  m' + bsum b = m + bsum b' /\ ksub b' b /\ d = (m' <=? tg).
Proof.
  induction b as [|e t IH]; intros m tg ev b' m' ev' d Hle H; cbn [sweep_bucket] in H; cbn [bsum] in Hle.
  - injection H as <- <- <- <-. auto.
  - destruct (ce_ref e).
    + destruct (m <=? tg) eqn:L.
      * injection H as <- <- <- <-. cbn [bsum ce_size]. auto.
      * destruct (sweep_bucket t m tg ev) as [[[t' m1] ev1] d1] eqn:E. injection H as <- <- <- <-.
        apply IH in E as (A & S & D); [|lia]. cbn [bsum ce_size]. repeat split; auto. lia.
    + destruct (m - ce_size e <=? tg) eqn:L.
      * injection H as <- <- <- <-. cbn [bsum]. repeat split; auto. lia.
      * apply IH in H as (A & S & D); [|lia]. cbn [bsum]. repeat split; auto. lia.
Qed.

(* [CInv] for a bucket list and a usage figure that are not yet packed into a cache *)
Definition BsInv (bs : list (N * list centry)) (m : N) : Prop :=
  sorted_idx bs /\ m = total bs /\ (forall i b, In (i, b) bs -> keys_unique b).

Lemma CInv_BsInv c : CInv c <-> BsInv (buckets c) (cmem c).
Proof. split; [intros [A B C]; repeat split; auto|intros (A & B & C); constructor; auto]. Qed.

Lemma BsInv_bset bs m i b' m' :
  BsInv bs m -> m' + bsum (bget i bs) = m + bsum b' -> keys_unique b' -> BsInv (bset i b' bs) m'.
Proof.
  intros (S & M & U) E UB. split; [apply sorted_bset; auto|]. split.
  - pose proof (total_bset i b' bs S). lia.
  - intros j x Hin. destruct (In_bset Hin) as [[= -> ->]|Hin']; eauto.
Qed.

(* sweep_pass takes each bucket from [order] and writes the result into [all]: [order] has to list
   buckets of [all], each once *)
Definition reads (order all : list (N * list centry)) : Prop :=
  NoDup (map fst order) /\ forall i b, In (i, b) order -> bget i all = b.

Lemma reads_step {i b t all b1} : sorted_idx all -> reads ((i, b) :: t) all -> reads t (bset i b1 all).
Proof.
  intros S (ND & G). inversion ND as [|? ? Hni ND']; subst. split; [exact ND'|].
  intros j x Hin. rewrite bget_bset by exact S.
  destruct (N.eqb_spec j i) as [->|_]; [|apply G; right; exact Hin].
  destruct Hni. exact (in_map fst _ _ Hin).
Qed.

Lemma reads_head_le {i b t all m} : BsInv all m -> reads ((i, b) :: t) all -> bsum b <= m.
Proof. intros (_ & -> & _) (_ & G). rewrite <- (G i b (or_introl eq_refl)). apply bget_bsum_le. Qed.

Lemma sweep_head_inv {i b t all m tg ev b1 m1 ev1 d} :
  BsInv all m -> reads ((i, b) :: t) all -> sweep_bucket b m tg ev = (b1, m1, ev1, d) ->
  BsInv (bset i b1 all) m1 /\ reads t (bset i b1 all) /\ d = (m1 <=? tg).
Proof.
  intros HI R E.
  destruct (sweep_bucket_acct (reads_head_le HI R) E) as (A & K & D).
  pose proof (proj2 R i b (or_introl eq_refl)) as GB.
  split; [|split; [exact (reads_step (proj1 HI) R) | exact D]].
  apply (BsInv_bset all m); [exact HI | rewrite GB; lia |].
  apply (ksub_unique K). rewrite <- GB. apply bget_unique, HI.
Qed.

Lemma sweep_pass_acct {order} : forall {all start m tg ev all' m' ev' done vis},
  BsInv all m -> reads order all -> sweep_pass order all start m tg ev = (all', m', ev', done, vis) ->
  BsInv all' m' /\ (done = true -> m' <= tg).
Proof.
  induction order as [|[i b] t IH]; intros all start m tg ev all' m' ev' done vis HI R H; cbn [sweep_pass] in H.
  - injection H as <- <- <- <- <-. split; [exact HI|discriminate].
  - destruct (sweep_bucket b m tg ev) as [[[b1 m1] ev1] d1] eqn:E.
    destruct (sweep_head_inv HI R E) as (HI1 & R1 & D). destruct d1.
    + injection H as <- <- <- <- <-. split; [exact HI1|]. intros _. apply N.leb_le. symmetry. exact D.
    + eapply IH; eassumption.
Qed.

Lemma rotate_perm s l : Permutation (rotate_at s l) l.
Proof.
  unfold rotate_at. induction l as [|[i b] t IH]; cbn [filter fst]; [constructor|].
  destruct (N.leb_spec s i); destruct (N.ltb_spec i s); try lia; cbn [app].
  - constructor. exact IH.
  - symmetry. apply Permutation_cons_app. symmetry. exact IH.
Qed.

Lemma sorted_NoDup l : sorted_idx l -> NoDup (map fst l).
Proof.
  induction l as [|[i b] t IH]; cbn [sorted_idx map fst]; intros H; [constructor|]. destruct H as (Hlt & Hs).
  constructor; auto. intros Hin. apply in_map_iff in Hin. destruct Hin as ([j x] & <- & Hin).
  specialize (Hlt _ _ Hin). cbn [fst] in Hlt. lia.
Qed.

Lemma reads_rotate s l : sorted_idx l -> reads (rotate_at s l) l.
Proof.
  intros S. pose proof (rotate_perm s l) as P. split.
  - apply (Permutation_NoDup (Permutation_sym (Permutation_map fst P))). apply sorted_NoDup. exact S.
  - intros i b Hin. apply bget_In; [exact S|]. exact (Permutation_in _ P Hin).
Qed.

(* one pass as evict_scans runs it: over every bucket, from the hand on *)
Lemma full_pass_acct {bs start m tg ev bs1 m1 ev1 d v} :
  BsInv bs m -> sweep_pass (rotate_at start bs) bs start m tg ev = (bs1, m1, ev1, d, v) ->
  BsInv bs1 m1 /\ (d = true -> m1 <= tg).
Proof. intros HI. apply sweep_pass_acct; [exact HI | apply reads_rotate, HI]. Qed.

Lemma evict_scans_stop n bs hnd m tg ev : m <= tg -> evict_scans n bs hnd m tg ev = (bs, hnd, m, ev).
Proof. intros L. apply N.leb_le in L. destruct n; cbn [evict_scans]; [|rewrite L]; reflexivity. Qed.

Lemma evict_scans_spec {n} : forall {bs hnd m tg ev bs' h' m' ev'},
  BsInv bs m -> evict_scans n bs hnd m tg ev = (bs', h', m', ev') -> BsInv bs' m'.
Proof.
  induction n as [|n IH]; intros bs hnd m tg ev bs' h' m' ev' HI H; cbn [evict_scans] in H.
  - injection H as <- <- <- <-. exact HI.
  - destruct (m <=? tg); [injection H as <- <- <- <-; exact HI|].
    destruct (sweep_pass _ _ _ _ _ _) as [[[[bs1 m1] ev1] done] vis] eqn:E.
    destruct (full_pass_acct HI E) as (HI1 & _).
    destruct done; [injection H as <- <- <- <-; exact HI1 | eauto].
Qed.

(* evict_entries is evict_scans: below the low watermark both return at once *)
Lemma cevict_scans c : exists h ev,
  evict_scans 3 (buckets c) (hand c) (cmem c) (low c) (evictions c) = (buckets (cevict c), h, cmem (cevict c), ev).
Proof.
  unfold cevict. destruct (N.leb_spec (cmem c) (low c)) as [L|_].
  - exists (hand c), (evictions c). apply evict_scans_stop. exact L.
  - destruct (evict_scans 3 _ _ _ _ _) as [[[bs h] m] ev]. exists h, ev. reflexivity.
Qed.

Lemma cevict_CInv c : CInv c -> CInv (cevict c).
Proof.
  intros HI. destruct (cevict_scans c) as (h & ev & E). apply CInv_BsInv.
  exact (evict_scans_spec (proj1 (CInv_BsInv c) HI) E).
Qed.

Lemma cevict_fields c : high (cevict c) = high c /\ low (cevict c) = low c /\ overhead (cevict c) = overhead c.
Proof.
  unfold cevict. destruct (_ <=? _); auto. destruct (evict_scans _ _ _ _ _ _) as [[[? ?] ?] ?]. cbn. auto.
Qed.

Lemma set_bucket_CInv c i b' m' :
  CInv c -> m' + bsum (bget i (buckets c)) = cmem c + bsum b' -> keys_unique b' ->
  CInv (with_buckets c (bset i b' (buckets c)) m').
Proof. intros HI E U. apply CInv_BsInv. apply (BsInv_bset _ (cmem c)); [apply CInv_BsInv|..]; assumption. Qed.

(* the reported memory equals the total size of the held entries, one entry per key, after every operation *)
Theorem cstep_CInv c o : CInv c -> CInv (fst (cstep c o)).
Proof.
  intros HI. destruct o as [k|k v|k| | |h l]; cbn [cstep fst].
  - unfold cget. destruct (find_entry k (bget (bucket_of k) (buckets c))); cbn [fst]; [|exact HI].
    apply set_bucket_CInv; [exact HI | rewrite bsum_touch; lia |].
    apply (ksub_unique (touch_ksub _ _)), bget_unique, HI.
  - unfold cinsert. set (sz := N.of_nat (length k) + N.of_nat (length v) + overhead c).
    destruct (high c / 4 <? sz); [exact HI|].
    set (c1 := if high c <? cmem c + sz then cevict c else c).
    assert (H1 : CInv c1) by (unfold c1; destruct (_ <? _); [apply cevict_CInv|]; exact HI).
    pose proof (bget_bsum_le (bucket_of k) (buckets c1)) as LE. rewrite <- (ci_mem _ H1) in LE.
    pose proof (bget_unique (bucket_of k) _ (ci_unique _ H1)) as UB.
    destruct (find_entry k (bget (bucket_of k) (buckets c1))) as [old|] eqn:F; apply set_bucket_CInv; try exact H1.
    + pose proof (bsum_replace k _ old (mkce k v true sz) F) as R. cbn [ce_size] in R.
      pose proof (bsum_remove k _ old F). lia.
    + exact (ksub_unique (replace_ksub k (mkce k v true sz) _ eq_refl) UB).
    + rewrite bsum_app. cbn [bsum ce_size]. lia.
    + apply unique_app_new; assumption.
  - unfold cremove. destruct (find_entry k (bget (bucket_of k) (buckets c))) as [old|] eqn:F; [|exact HI].
    apply set_bucket_CInv; [exact HI | |].
    + pose proof (bsum_remove k _ old F). pose proof (bget_bsum_le (bucket_of k) (buckets c)) as LE.
      rewrite <- (ci_mem _ HI) in LE. lia.
    + apply (ksub_unique (remove_ksub _ _)), bget_unique, HI.
  - apply cevict_CInv, HI.
  - constructor; cbn [cclear buckets cmem sorted_idx total]; auto. intros ? ? [].
  - unfold cadjust. destruct (_ && _); [|exact HI].
    set (c1 := mkcache _ _ _ _ _ _ _).
    assert (H1 : CInv c1) by (destruct HI; constructor; auto).
    destruct (_ <? _); [apply cevict_CInv|]; exact H1.
Qed.

Definition crun (c : cache) (ops : list cop) : cache := fold_left (fun c o => fst (cstep c o)) ops c.

Theorem crun_CInv ops c : CInv c -> CInv (crun c ops).
Proof. apply fold_left_inv. intros s o. apply cstep_CInv. Qed.

Lemma cache_new_CInv e : CInv (cache_new e).
Proof. constructor; cbn [cache_new buckets cmem sorted_idx total]; auto. intros ? ? []. Qed.

Theorem remove_then_miss c k : CInv c -> fst (cget (cremove c k) k) = None.
Proof.
  intros HI. unfold cremove. destruct (find_entry k (bget (bucket_of k) (buckets c))) as [old|] eqn:F.
  - unfold cget. cbn [buckets with_buckets]. rewrite bget_bset, N.eqb_refl by apply HI.
    rewrite find_after_remove; [reflexivity|]. apply bget_unique, HI.
  - unfold cget. rewrite F. reflexivity.
Qed.

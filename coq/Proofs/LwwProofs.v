(* Proofs about the reference map Model/Lww.v.

   The bindings are used through the equations of [find] over [upsert] and [remove]; a call is
   used through [step_change], which says what one call can do to the bindings and the memory
   counter.  Accounting, the memory limit, what an error leaves behind and the survival of
   unexpired keys are read off that one case analysis. *)
From Coq Require Import List NArith Bool Lia.
From Feox Require Import Model.Bytes Model.Lww Proofs.ListFacts Proofs.BytesProofs.
Import ListNotations.
Local Open Scope N_scope.

Fixpoint sorted (l : list (list N * gen)) : Prop :=
  match l with
  | [] => True
  | (k, _) :: t => (forall k' g', In (k', g') t -> key_ltb k k' = true) /\ sorted t
  end.

Lemma find_In k l g : find k l = Some g -> In (k, g) l.
Proof.
  induction l as [|[k' g'] t IH]; cbn [find In]; [discriminate|].
  destruct (list_eqb k' k) eqn:E; [|auto].
  apply list_eqb_eq in E as ->. intros [= <-]. auto.
Qed.

Lemma find_above k l : (forall k' g', In (k', g') l -> key_ltb k k' = true) -> find k l = None.
Proof.
  intros H. destruct (find k l) as [g|] eqn:F; [|reflexivity].
  apply find_In, H in F. rewrite key_ltb_irrefl in F. discriminate.
Qed.

Lemma sorted_find_unique k l g : sorted l -> In (k, g) l -> find k l = Some g.
Proof.
  induction l as [|[k' g'] t IH]; cbn [sorted find In]; [tauto|].
  intros (Hlt & Hs) [[= -> ->]|Hin]; [rewrite list_eqb_refl; reflexivity|].
  rewrite (key_ltb_neq _ _ (Hlt _ _ Hin)). exact (IH Hs Hin).
Qed.

Lemma find_upsert k g l k' : find k' (upsert k g l) = if list_eqb k k' then Some g else find k' l.
Proof.
  induction l as [|[k0 g0] t IH]; cbn [upsert find]; [reflexivity|].
  destruct (list_eqb k0 k) eqn:E.
  - apply list_eqb_eq in E as ->. cbn [find]. destruct (list_eqb k k'); reflexivity.
  - destruct (key_ltb k k0); cbn [find]; [reflexivity|].
    rewrite IH. destruct (list_eqb k0 k') eqn:E'; [|reflexivity].
    apply list_eqb_eq in E' as <-. rewrite (list_eqb_sym k k0), E. reflexivity.
Qed.

Lemma find_remove_other k l k' : k' <> k -> find k' (remove k l) = find k' l.
Proof.
  intros Hne. induction l as [|[k0 g0] t IH]; cbn [remove find]; [reflexivity|].
  destruct (list_eqb k0 k) eqn:E; cbn [find]; [|rewrite IH; reflexivity].
  apply list_eqb_eq in E as ->.
  assert (list_eqb k k' = false) as -> by (apply list_eqb_neq; congruence). reflexivity.
Qed.

(* the only equation of [find] over [upsert] and [remove] that needs the order *)
Lemma find_remove_same k l : sorted l -> find k (remove k l) = None.
Proof.
  induction l as [|[k0 g0] t IH]; cbn [sorted remove]; [reflexivity|]. intros (Hlt & Hs).
  destruct (list_eqb k0 k) eqn:E.
  - apply list_eqb_eq in E as ->. exact (find_above k t Hlt).
  - cbn [find]. rewrite E. exact (IH Hs).
Qed.

Lemma In_upsert k g l x : In x (upsert k g l) -> x = (k, g) \/ In x l.
Proof.
  induction l as [|[k0 g0] t IH]; cbn [upsert]; [|destruct (list_eqb k0 k); [|destruct (key_ltb k k0)]];
    cbn [In]; intuition.
Qed.

Lemma In_remove k l x : In x (remove k l) -> In x l.
Proof.
  induction l as [|[k0 g0] t IH]; cbn [remove]; [auto|]. destruct (list_eqb k0 k); cbn [In]; intuition.
Qed.

Lemma sorted_upsert k g l : sorted l -> sorted (upsert k g l).
Proof.
  induction l as [|[k0 g0] t IH]; cbn [upsert sorted In]; [tauto|].
  intros (Hlt & Hs). destruct (list_eqb k0 k) eqn:E; [|destruct (key_ltb k k0) eqn:L]; cbn [sorted].
  - apply list_eqb_eq in E as ->. auto.
  - split; [|auto]. intros k' g' [[= <- <-]|Hin]; eauto using key_ltb_trans.
  - split; [|auto]. intros k' g' [[= -> ->]|Hin]%In_upsert; [|eauto].
    exact (key_ltb_total _ _ L (eq_trans (list_eqb_sym k k0) E)).
Qed.

Lemma sorted_remove k l : sorted l -> sorted (remove k l).
Proof.
  induction l as [|[k0 g0] t IH]; cbn [remove sorted]; [auto|]. intros (Hlt & Hs).
  destruct (list_eqb k0 k); [exact Hs|]. cbn [sorted]. split; [|auto]. eauto using In_remove.
Qed.

Lemma sorted_filter f l : sorted l -> sorted (filter f l).
Proof.
  induction l as [|[k g] t IH]; cbn [filter sorted]; [auto|]. intros (Hlt & Hs).
  destruct (f (k, g)); [|auto]. cbn [sorted]. split; [|auto].
  intros k' g' [Hin _]%filter_In. eauto.
Qed.

Definition osize (c : cfg) (k : list N) (og : option gen) : N :=
  match og with Some o => rsize c k (g_val o) | None => 0 end.

Lemma sum_mem_upsert c k g l : sorted l ->
  sum_mem c (upsert k g l) + osize c k (find k l) = sum_mem c l + rsize c k (g_val g).
Proof.
  induction l as [|[k0 g0] t IH]; cbn [sorted upsert find sum_mem osize]; [lia|]. intros (Hlt & Hs).
  destruct (list_eqb k0 k) eqn:E.
  - apply list_eqb_eq in E as ->. cbn [sum_mem osize]. lia.
  - destruct (key_ltb k k0) eqn:L; cbn [sum_mem].
    + (* k sorts before the head, so it is not further down *)
      rewrite (find_above k t) by eauto using key_ltb_trans. cbn [osize]. lia.
    + specialize (IH Hs). lia.
Qed.

Lemma sum_mem_remove c k old l : find k l = Some old ->
  sum_mem c (remove k l) + rsize c k (g_val old) = sum_mem c l.
Proof.
  induction l as [|[k0 g0] t IH]; cbn [find remove sum_mem]; [discriminate|].
  destruct (list_eqb k0 k) eqn:E.
  - apply list_eqb_eq in E as ->. intros [= <-]. lia.
  - cbn [sum_mem]. intros F. specialize (IH F). lia.
Qed.

Lemma reserve_spec c m a m' : reserve c m a = Some m' -> m' = m + a.
Proof.
  unfold reserve. destruct (limit c) as [lim|]; [|congruence].
  destruct (N.eqb_spec a 0); [intros [= <-]; lia|]. destruct (lim <? m + a); congruence.
Qed.

Lemma reserve_limit c m a m' lim : limit c = Some lim -> reserve c m a = Some m' -> m <= lim -> m' <= lim.
Proof.
  unfold reserve. intros ->. destruct (N.eqb_spec a 0); [intros [= <-]; auto|].
  destruct (N.ltb_spec lim (m + a)); [discriminate|intros [= <-]; auto].
Qed.

Lemma replace_mem_spec c m old new m' : replace_mem c m old new = Some m' -> old <= m -> m' + old = m + new.
Proof.
  unfold replace_mem. destruct (reserve c m (new - old)) as [m1|] eqn:R; [|discriminate].
  apply reserve_spec in R. intros [= <-] Hle. destruct (N.ltb_spec new old); lia.
Qed.

Lemma replace_mem_limit c m old new m' lim :
  limit c = Some lim -> replace_mem c m old new = Some m' -> m <= lim -> m' <= lim.
Proof.
  intros HL. unfold replace_mem. destruct (reserve c m (new - old)) as [m1|] eqn:R; [|discriminate].
  intros [= <-] H. pose proof (reserve_limit c m _ m1 lim HL R H). destruct (new <? old); lia.
Qed.

Lemma replace_mem_new c m a : replace_mem c m 0 a = reserve c m a.
Proof.
  unfold replace_mem. rewrite N.sub_0_r. destruct (reserve c m a); [|reflexivity].
  destruct (N.ltb_spec a 0); [lia|reflexivity].
Qed.

Lemma replace_mem_same c m a : replace_mem c m a a = Some m.
Proof.
  unfold replace_mem, reserve. rewrite N.sub_diag, N.ltb_irrefl.
  destruct (limit c); [reflexivity|]. rewrite N.add_0_r. reflexivity.
Qed.

Record Inv (c : cfg) (s : st) : Prop := {
  inv_sorted : sorted (kv s);
  inv_mem : mem s = sum_mem c (kv s)
}.

Lemma Inv_init c : Inv c init.
Proof. now split. Qed.

Lemma Inv_same c s s' : Inv c s -> kv s' = kv s -> mem s' = mem s -> Inv c s'.
Proof. intros [A B] E1 E2. constructor; rewrite ?E1, ?E2; assumption. Qed.

Definition is_err (o : out) : bool := match o with OErr _ => true | _ => false end.

(* [p] leaves the contents (l, m) alone, or it succeeds and binds [k], the counter moving as for a
   value that replaces [og], the generation the call had found ([None]: it found none). *)
Definition wrote (c : cfg) (k : list N) (og : option gen) (l : list (list N * gen)) (m : N)
                 (p : st * out) : Prop :=
  (kv (fst p) = l /\ mem (fst p) = m) \/
  (is_err (snd p) = false /\ exists g, kv (fst p) = upsert k g l /\
     replace_mem c m (osize c k og) (rsize c k (g_val g)) = Some (mem (fst p))).

Lemma wrote_put c k g og l m m' clk ok : is_err ok = false ->
  replace_mem c m (osize c k og) (rsize c k (g_val g)) = Some m' ->
  wrote c k og l m (mkst (upsert k g l) m' clk, ok).
Proof. right. split; [assumption|]. exists g. auto. Qed.

Lemma wrote_Inv c s k og p : Inv c s -> find k (kv s) = og -> wrote c k og (kv s) (mem s) p -> Inv c (fst p).
Proof.
  intros HI <- [[Ek Em]|(_ & g & Ek & Em)]; [exact (Inv_same c s _ HI Ek Em)|]. destruct HI as [Hs Hm].
  pose proof (sum_mem_upsert c k g (kv s) Hs) as U. apply replace_mem_spec in Em.
  - constructor; rewrite Ek; [exact (sorted_upsert k g _ Hs)|lia].
  - destruct (find k (kv s)) as [old|] eqn:F; cbn [osize]; [|lia].
    pose proof (sum_mem_remove c k old (kv s) F). lia.
Qed.

Lemma wrote_limit c k og l m p lim : limit c = Some lim -> wrote c k og l m p -> m <= lim -> mem (fst p) <= lim.
Proof.
  intros HL [[_ ->]|(_ & g & _ & Em)]; eauto using replace_mem_limit.
Qed.

Lemma wrote_err c k og l m p : is_err (snd p) = true -> wrote c k og l m p -> kv (fst p) = l /\ mem (fst p) = m.
Proof. intros H [E|(OK & _)]; [exact E|congruence]. Qed.

Lemma wrote_keeps c k og l m p k' : wrote c k og l m p -> find k' l <> None -> find k' (kv (fst p)) <> None.
Proof.
  intros [[-> _]|(_ & g & -> & _)] H; [exact H|].
  rewrite find_upsert. destruct (list_eqb k k'); [discriminate|exact H].
Qed.

Lemma del_Inv c s k old s' : Inv c s -> find k (kv s) = Some old ->
  kv s' = remove k (kv s) -> mem s' = mem s - rsize c k (g_val old) -> Inv c s'.
Proof.
  intros [Hs Hm] F Ek Em. pose proof (sum_mem_remove c k old (kv s) F).
  constructor; rewrite Ek; [exact (sorted_remove k _ Hs)|lia].
Qed.

(* The resolved state is written [mkst (kv s) (mem s) cl], so that its contents are those of [s]
   by conversion; an automatic timestamp has passed [auto_ok]. *)
Inductive resolve_view (s : st) (e : env) (ts : option N) : tsres -> Prop :=
| ts_ok t cl :
    match explicit ts with
    | Some t0 => t = t0
    | None => auto_ok (clock_get (e_shard e) (clocks s)) t (e_tb e) (e_ta e) = true
    end -> resolve_view s e ts (TsOk t (mkst (kv s) (mem s) cl))
| ts_bad : resolve_view s e ts TsBad.

Lemma resolve_ts_spec s e ts : resolve_view s e ts (resolve_ts s e ts).
Proof.
  unfold resolve_ts. destruct s as [l m cl]. destruct (explicit ts) eqn:X.
  - apply (ts_ok (mkst l m cl) e ts n cl). rewrite X. reflexivity.
  - cbn [clocks]. destruct (auto_ok _ _ _ _) eqn:A; [|constructor].
    apply (ts_ok (mkst l m cl) e ts (e_clk e)). rewrite X. exact A.
Qed.

Lemma resolve_ts_explicit s e t : t <> 0 -> resolve_ts s e (Some t) = TsOk t s.
Proof. intros Ht. unfold resolve_ts, explicit. destruct (N.eqb_spec t 0); [contradiction|reflexivity]. Qed.

(* an automatically issued timestamp exceeds everything the shard has seen, unless the shard is saturated *)
Theorem auto_exceeds last clk tb ta : auto_ok last clk tb ta = true -> last <> U64M -> last < clk.
Proof.
  unfold auto_ok. destruct (N.eqb_spec last U64M); [contradiction|]. intros H _.
  destruct (N.ltb_spec last clk); [assumption|discriminate].
Qed.

Section Replace.
  Variables (c : cfg) (s : st) (e : env) (k : list N) (old : gen) (ts : option N) (t : N)
            (v : list N) (exp : N) (ok : out).

  Inductive replace_view : st * out -> Prop :=
  | rp_older : t <= g_ts old -> replace_view (s, OErr Older)
  | rp_full : g_ts old < t -> replace_mem c (mem s) (rsize c k (g_val old)) (rsize c k v) = None ->
      replace_view (s, OErr OutOfMemory)
  | rp_done m' : g_ts old < t -> replace_mem c (mem s) (rsize c k (g_val old)) (rsize c k v) = Some m' ->
      replace_view (mkst (upsert k (mkgen v t exp) (kv s)) m' (publish_clock s e ts t), ok).

  Lemma replace_spec : replace_view (replace c s e k old ts t v exp ok).
  Proof.
    unfold replace. destruct (N.leb_spec t (g_ts old)); [constructor; assumption|].
    destruct (replace_mem _ _ _ _) eqn:R; constructor; assumption.
  Qed.
End Replace.

Lemma validate_key_err k er : validate_key k = Some er -> er = InvalidKeySize.
Proof. unfold validate_key. destruct (_ || _); congruence. Qed.

Lemma validate_kv_err c k v er : validate_kv c k v = Some er -> er = InvalidKeySize \/ er = InvalidValueSize.
Proof.
  unfold validate_kv, validate_new_key, validate_value.
  destruct (_ || _); [intros [= <-]; auto|].
  destruct (_ || _); [|destruct (_ && _); [|intros [= <-]; auto]]; destruct (_ || _); intros [= <-]; auto.
Qed.

(* The result [p] of call [o] on contents (l, m): nothing; one key written; an accepted delete; or
   an increment that met an expired generation, which it retires before it creates the key afresh
   or fails. *)
Inductive change (c : cfg) (l : list (list N * gen)) (m : N) (o : op) (e : env) (p : st * out) : Prop :=
| ch_same : kv (fst p) = l -> mem (fst p) = m -> change c l m o e p
| ch_wrote k : wrote c k (find k l) l m p -> change c l m o e p
| ch_del k ts old : o = Delete k ts -> is_err (snd p) = false -> find k l = Some old ->
    kv (fst p) = remove k l -> mem (fst p) = m - rsize c k (g_val old) -> change c l m o e p
| ch_retire k d ts ttl old : o = Incr k d ts ttl -> find k l = Some old ->
    expired c old (e_tb e) (e_ta e) = Yes ->
    wrote c k None (remove k l) (m - rsize c k (g_val old)) p -> change c l m o e p.

#[local] Hint Resolve ch_same : core.

Lemma replace_change c l m o e s k old ts t v exp ok :
  kv s = l -> mem s = m -> find k l = Some old -> is_err ok = false ->
  change c l m o e (replace c s e k old ts t v exp ok).
Proof.
  intros <- <- F OK. destruct (replace_spec c s e k old ts t v exp ok) as [_|_ _|m' _ R]; [auto|auto|].
  apply ch_wrote with k. rewrite F. apply wrote_put; assumption.
Qed.

(* the body of [create], and of the two places where an increment creates the key inline *)
Lemma reserve_wrote c k v t exp clk ok l m s : kv s = l -> mem s = m -> is_err ok = false ->
  wrote c k None l m match reserve c (mem s) (rsize c k v) with
                     | None => (s, OErr OutOfMemory)
                     | Some m' => (mkst (upsert k (mkgen v t exp) (kv s)) m' clk, ok)
                     end.
Proof.
  intros <- <- OK. destruct (reserve c (mem s) (rsize c k v)) as [m'|] eqn:R; [|left; split; reflexivity].
  apply wrote_put; [exact OK|]. cbn [osize]. rewrite replace_mem_new. exact R.
Qed.

Lemma create_change c l m o e s k ts t v exp ok :
  kv s = l -> mem s = m -> find k l = None -> is_err ok = false ->
  change c l m o e (create c s e k ts t v exp ok).
Proof. intros E1 E2 F OK. apply ch_wrote with k. rewrite F. apply reserve_wrote; assumption. Qed.

#[local] Hint Resolve replace_change create_change : core.

Theorem step_change c s o e : change c (kv s) (mem s) o e (step c s o e).
Proof.
  destruct o; cbn [step].
  - (* Insert *)
    destruct (ttl_api && negb (ttl_on c)); [auto|].
    destruct (ttl_api && negb (ttl_write_supported c)); [auto|].
    destruct (validate_kv c k v); [auto|].
    destruct (resolve_ts_spec s e ts) as [t cl _|]; cbn [kv mem]; [|auto].
    destruct (find k (kv s)) eqn:F; auto.
  - (* Get *)
    destruct (validate_key k); [auto|]. destruct (find k (kv s)); [|auto].
    destruct (expired _ _ _ _); auto.
  - (* GetSize *)
    destruct (validate_key k); [auto|]. destruct (find k (kv s)); auto.
  - auto.
  - auto.
  - (* Delete *)
    destruct (validate_key k); [auto|].
    destruct (resolve_ts_spec s e ts) as [t cl _|]; cbn [kv mem]; [|auto].
    destruct (find k (kv s)) as [old|] eqn:F; [|auto].
    destruct (t <=? g_ts old); [auto|].
    eapply ch_del; eauto.
  - (* Incr *)
    destruct (_ && _); [auto|]. destruct (validate_new_key c k); [auto|].
    destruct (find k (kv s)) as [old|] eqn:F.
    + destruct (match explicit ts with Some t0 => t0 <=? g_ts old | None => false end); [auto|].
      destruct (expired c old (e_tb e) (e_ta e)) eqn:EX; [| |auto].
      * (* the expired generation is retired whatever follows, short of a clock complaint *)
        pose proof (fun p => ch_retire c (kv s) (mem s) _ e p k delta ts ttl old eq_refl F EX) as RT.
        destruct (explicit ts) as [t0|].
        -- destruct (le_now t0 _ _); [| |auto].
           ++ destruct (_ <=? _); [|auto]. apply RT. left. auto.
           ++ destruct (negb _); [auto|]. apply RT. apply reserve_wrote; reflexivity.
        -- destruct (_ && _); [|auto]. apply RT. apply reserve_wrote; reflexivity.
      * destruct (negb _); [auto|].
        destruct (resolve_ts_spec s e ts) as [t cl _|]; auto.
    + destruct (resolve_ts_spec s e ts) as [t cl _|]; auto.
  - (* InsertIfAbsent *)
    destruct (validate_kv c k v); [auto|]. destruct (find k (kv s)) eqn:F; [auto|].
    destruct (reserve c (mem s) _) as [m'|] eqn:RS; [|auto].
    destruct (resolve_ts_spec s e None) as [t cl _|]; cbn [kv clocks]; [|auto].
    apply ch_wrote with k. rewrite F. apply wrote_put; [reflexivity|]. cbn [osize]. rewrite replace_mem_new. exact RS.
  - (* Cas *)
    destruct (_ && _); [auto|]. destruct (validate_kv c k v); [auto|].
    destruct (find k (kv s)) as [old|] eqn:F; [|auto].
    destruct (expired _ _ _ _); [auto| |auto]. destruct (negb _); [auto|].
    destruct (resolve_ts_spec s e ts) as [t cl _|]; auto.
  - (* JsonPatch *)
    destruct (validate_key k); [auto|].
    destruct (resolve_ts_spec s e ts) as [t cl _|]; cbn [kv mem]; [|auto].
    destruct (find k (kv s)) as [old|] eqn:F; [|auto].
    destruct (t <=? g_ts old); [auto|]. destruct (expired _ _ _ _); [auto| |auto].
    destruct (e_patched e) as [v|]; [|auto]. destruct (validate_kv c k v); auto.
  - (* UpdateTtl: the value, hence the size, stays *)
    destruct (negb (ttl_on c)); [auto|]. destruct (negb (ttl_write_supported c)); [auto|].
    destruct (validate_key k); [auto|]. destruct (find k (kv s)) as [old|] eqn:F; [|auto].
    destruct (expired _ _ _ _); [auto| |auto]. destruct (g_ts old =? U64M); [auto|].
    destruct (negb (auto_ok _ _ _ _)); [auto|]. destruct (negb _); [auto|].
    apply ch_wrote with k. rewrite F. apply wrote_put; [reflexivity|]. apply replace_mem_same.
  - (* GetTtl *)
    destruct (negb _); [auto|]. destruct (validate_key k); [auto|].
    destruct (find k (kv s)); [|auto]. destruct (_ =? 0); [auto|].
    destruct (le_now _ _ _); [auto| |auto]. destruct (_ && _); auto.
  - (* Range *)
    destruct (_ || _); [auto|]. destruct (range_collect _ _ _ _ _ _ _); auto.
  - auto.
Qed.

(* every call preserves: bindings sorted & unique, memory_usage = sum over live keys of (R + |k| + |v|) *)
Theorem step_Inv c s o e : Inv c s -> Inv c (fst (step c s o e)).
Proof.
  intros HI. destruct (step_change c s o e) as [Ek Em|k P|k ts old _ _ F Ek Em|k d ts ttl old _ F _ P].
  - exact (Inv_same c s _ HI Ek Em).
  - exact (wrote_Inv c s k _ _ HI eq_refl P).
  - exact (del_Inv c s k old _ HI F Ek Em).
  - set (s0 := mkst (remove k (kv s)) (mem s - rsize c k (g_val old)) (clocks s)).
    apply (wrote_Inv c s0 k None); [exact (del_Inv c s k old s0 HI F eq_refl eq_refl)| |exact P].
    exact (find_remove_same k _ (inv_sorted c s HI)).
Qed.

Definition frun (c : cfg) (s : st) (ops : list (op * env)) : st :=
  fold_left (fun s oe => fst (step c s (fst oe) (snd oe))) ops s.

Theorem frun_Inv c ops : forall s, Inv c s -> Inv c (frun c s ops).
Proof. apply fold_left_inv. intros s oe. apply step_Inv. Qed.

(* A call that returns an error leaves every binding and the memory counter unchanged -- with one
   documented exception: an increment that found an expired (already invisible) generation has
   retired it before failing. *)
Theorem error_leaves_contents c s o e :
  is_err (snd (step c s o e)) = true ->
  (kv (fst (step c s o e)) = kv s /\ mem (fst (step c s o e)) = mem s) \/
  (exists k delta ts ttl old, o = Incr k delta ts ttl /\ find k (kv s) = Some old /\
     expired c old (e_tb e) (e_ta e) = Yes /\ kv (fst (step c s o e)) = remove k (kv s)).
Proof.
  intros H. destruct (step_change c s o e) as [Ek Em|k P|k ts old _ OK _ _ _|k d ts ttl old -> F EX P].
  - left. auto.
  - left. eauto using wrote_err.
  - congruence.
  - right. exists k, d, ts, ttl, old. destruct (wrote_err _ _ _ _ _ _ H P) as [Ek _]. auto.
Qed.

(* the limit is never exceeded by an admitted write *)
Theorem limit_respected c s o e lim :
  limit c = Some lim -> mem s <= lim -> mem (fst (step c s o e)) <= lim.
Proof.
  intros HL HM. destruct (step_change c s o e) as [_ Em|k P|k ts old _ _ _ _ Em|k d ts ttl old _ _ _ P].
  - lia.
  - eauto using wrote_limit.
  - lia.
  - apply (wrote_limit _ _ _ _ _ _ _ HL P). lia.
Qed.

Definition visible_now (c : cfg) (g : gen) (tb ta : N) : bool :=
  match expired c g tb ta with No => true | _ => false end.

Lemma drop_expired_filter c l tb ta r : drop_expired c l tb ta = Some r ->
  r = filter (fun kg => visible_now c (snd kg) tb ta) l.
Proof.
  revert r. induction l as [|[k g] t IH]; cbn [drop_expired filter snd]; intros r; [intros [= <-]; reflexivity|].
  unfold visible_now at 1.
  destruct (expired c g tb ta); destruct (drop_expired c t tb ta) as [r'|]; try discriminate;
    intros [= <-]; rewrite (IH _ eq_refl); reflexivity.
Qed.

Lemma reopen_spec c s tb ta shards clk s' : reopen c s tb ta shards clk = ReOk s' ->
  kv s' = filter (fun kg => visible_now c (snd kg) tb ta) (kv s) /\ mem s' = sum_mem c (kv s').
Proof.
  unfold reopen. destruct (drop_expired c (kv s) tb ta) as [l|] eqn:D; [|discriminate].
  destruct (clocks_cover l shards clk); [|discriminate]. intros [= <-].
  eauto using drop_expired_filter.
Qed.

Theorem reopen_Inv c s tb ta shards clk s' :
  Inv c s -> reopen c s tb ta shards clk = ReOk s' -> Inv c s'.
Proof.
  intros [Hs _] R. apply reopen_spec in R as [Ek Em].
  constructor; [rewrite Ek; exact (sorted_filter _ _ Hs)|exact Em].
Qed.

(* a range query returns exactly the first `limit` live bindings in range *)
Definition in_range (a b k : list N) : bool := negb (key_ltb k a) && negb (key_ltb b k).
Definition range_spec (c : cfg) (l : list (list N * gen)) (a b : list N) (tb ta : N) : list (list N * list N) :=
  map (fun kg => (fst kg, g_val (snd kg)))
      (filter (fun kg => in_range a b (fst kg) && visible_now c (snd kg) tb ta) l).

Lemma range_spec_cons c k g t a b tb ta : range_spec c ((k, g) :: t) a b tb ta =
  if in_range a b k && visible_now c g tb ta then (k, g_val g) :: range_spec c t a b tb ta
  else range_spec c t a b tb ta.
Proof. unfold range_spec. cbn [filter fst snd]. destruct (_ && _); reflexivity. Qed.

Lemma range_spec_past c l a b tb ta k0 :
  key_ltb b k0 = true -> (forall k g, In (k, g) l -> key_ltb k0 k = true) -> range_spec c l a b tb ta = [].
Proof.
  intros Hb Hl. induction l as [|[k g] t IH]; [reflexivity|]. rewrite range_spec_cons. unfold in_range.
  rewrite (key_ltb_trans _ _ _ Hb (Hl k g (or_introl eq_refl))), andb_false_r.
  apply IH. eauto using in_cons.
Qed.

Theorem range_exact c l a b tb ta : sorted l ->
  (forall k g, In (k, g) l -> expired c g tb ta <> Unknown) ->
  forall lim, range_collect c l a b lim tb ta = Some (firstn lim (range_spec c l a b tb ta)).
Proof.
  induction l as [|[k g] t IH]; intros Hs Hd lim; [destruct lim; reflexivity|].
  destruct Hs as (Hlt & Hs).
  assert (Hd' : forall k' g', In (k', g') t -> expired c g' tb ta <> Unknown) by eauto using in_cons.
  cbn [range_collect]. destruct lim as [|lim']; [reflexivity|].
  rewrite range_spec_cons. unfold in_range, visible_now.
  destruct (key_ltb k a); cbn [negb andb]; [exact (IH Hs Hd' _)|].
  destruct (key_ltb b k) eqn:KB; cbn [negb andb].
  - (* past the upper bound: nothing further down is in range either *)
    rewrite (range_spec_past c t a b tb ta k KB Hlt). reflexivity.
  - pose proof (Hd k g (or_introl eq_refl)) as HD.
    destruct (expired c g tb ta); [exact (IH Hs Hd' _)| |contradiction].
    cbn [firstn]. rewrite (IH Hs Hd' lim'). reflexivity.
Qed.

(* results are inside the bounds and are genuine, unexpired bindings *)
Lemma range_spec_in c l a b tb ta k v : In (k, v) (range_spec c l a b tb ta) ->
  in_range a b k = true /\ exists g, In (k, g) l /\ v = g_val g /\ expired c g tb ta = No.
Proof.
  unfold range_spec. rewrite in_map_iff.
  intros ([k' g] & [= <- <-] & [Hin Hc]%filter_In). apply andb_true_iff in Hc as [A B].
  unfold visible_now in B. cbn [fst snd] in A, B. split; [exact A|]. exists g.
  destruct (expired c g tb ta); [discriminate|auto|discriminate].
Qed.

Lemma expired_yes c g tb ta : ttl_on c = true -> 0 < g_exp g -> g_exp g < tb -> expired c g tb ta = Yes.
Proof.
  intros H1 H2 H3. unfold expired, lt_now. rewrite H1. cbn [negb].
  destruct (N.eqb_spec (g_exp g) 0); [lia|]. destruct (N.ltb_spec (g_exp g) tb); [reflexivity|lia].
Qed.

Lemma expired_no c g tb ta : tb <= ta -> (ttl_on c = false \/ g_exp g = 0 \/ ta <= g_exp g) -> expired c g tb ta = No.
Proof.
  intros W H. unfold expired, lt_now. destruct (ttl_on c); cbn [negb]; [|reflexivity].
  destruct (N.eqb_spec (g_exp g) 0); [reflexivity|].
  destruct H as [H|[H|H]]; [discriminate|contradiction|].
  destruct (N.ltb_spec (g_exp g) tb); [lia|]. destruct (N.leb_spec ta (g_exp g)); [reflexivity|lia].
Qed.

(* once the expiry instant has passed, neither a read, a swap, a TTL update nor a range query sees
   the value ([GetSize] still answers, as get_size does in the store) *)
Theorem never_visible_after c s e k g :
  sorted (kv s) ->
  ttl_on c = true -> find k (kv s) = Some g -> 0 < g_exp g -> g_exp g < e_tb e -> validate_key k = None ->
  snd (step c s (Get k) e) = OErr KeyNotFound /\
  (forall x v ts ttl, is_err (snd (step c s (Cas k x v ts ttl) e)) = true \/ snd (step c s (Cas k x v ts ttl) e) = OBool false) /\
  (forall ttl, ttl_write_supported c = true -> snd (step c s (UpdateTtl k ttl) e) = OErr KeyNotFound) /\
  (forall a b v, ~ In (k, v) (range_spec c (kv s) a b (e_tb e) (e_ta e))).
Proof.
  intros HS HT HF H0 HX HV. pose proof (expired_yes c g (e_tb e) (e_ta e) HT H0 HX) as EX.
  repeat split.
  - cbn [step]. rewrite HV, HF, EX. reflexivity.
  - intros. cbn [step]. destruct (_ && _); [left; reflexivity|].
    destruct (validate_kv c k v); [left; reflexivity|]. rewrite HF, EX. right. reflexivity.
  - intros ttl HW. cbn [step]. rewrite HT, HW, HV, HF, EX. reflexivity.
  - intros a b v (_ & g' & Hin & _ & EN)%range_spec_in.
    apply (sorted_find_unique _ _ _ HS) in Hin. congruence.
Qed.

(* a read returns the latest accepted value *)
Theorem get_returns_binding c s e k g :
  find k (kv s) = Some g -> validate_key k = None -> expired c g (e_tb e) (e_ta e) = No ->
  step c s (Get k) e = (s, OVal (g_val g)).
Proof. intros HF HV EX. cbn [step]. rewrite HV, HF, EX. reflexivity. Qed.

(* while the newest generation is unexpired (or has no expiry) a read returns it *)
Theorem never_hidden_before c s e k g :
  e_tb e <= e_ta e -> find k (kv s) = Some g -> validate_key k = None ->
  (ttl_on c = false \/ g_exp g = 0 \/ e_ta e <= g_exp g) ->
  snd (step c s (Get k) e) = OVal (g_val g).
Proof. intros W HF HV H. rewrite (get_returns_binding c s e k g HF HV (expired_no c g _ _ W H)). reflexivity. Qed.

(* no call other than an accepted delete of that very key removes a key whose newest generation
   is unexpired *)
Theorem unexpired_not_removed c s o e k g :
  e_tb e <= e_ta e -> find k (kv s) = Some g ->
  (ttl_on c = false \/ g_exp g = 0 \/ e_ta e <= g_exp g) ->
  (forall ts, o <> Delete k ts) ->
  find k (kv (fst (step c s o e))) <> None.
Proof.
  intros W HF HE HD. assert (K : find k (kv s) <> None) by (rewrite HF; discriminate).
  destruct (step_change c s o e) as [Ek _|k0 P|k0 ts old -> _ _ Ek _|k0 d ts ttl old _ F EX P].
  - congruence.
  - eauto using wrote_keeps.
  - rewrite Ek, find_remove_other; [exact K|]. intros ->. exact (HD ts eq_refl).
  - (* the retired key is not k, whose generation is unexpired *)
    apply (wrote_keeps _ _ _ _ _ _ k P). rewrite find_remove_other; [exact K|].
    intros ->. rewrite HF in F. injection F as <-. rewrite (expired_no c g _ _ W HE) in EX. discriminate.
Qed.

Theorem ttl_only_update_keeps_value c s e k ttl old :
  find k (kv s) = Some old -> snd (step c s (UpdateTtl k ttl) e) = OUnit ->
  exists g, find k (kv (fst (step c s (UpdateTtl k ttl) e))) = Some g /\ g_val g = g_val old /\ g_ts old < g_ts g.
Proof.
  intros HF. cbn [step].
  destruct (negb (ttl_on c)); [discriminate|]. destruct (negb _); [discriminate|].
  destruct (validate_key k); [discriminate|]. rewrite HF.
  destruct (expired _ _ _ _); [discriminate| |discriminate].
  destruct (g_ts old =? U64M); [discriminate|].
  destruct (negb _); [discriminate|]. destruct (negb _); [discriminate|].
  intros _. eexists. cbn [fst kv]. rewrite find_upsert, list_eqb_refl.
  repeat split. cbn [g_ts]. lia.
Qed.

Theorem reopen_keeps_unexpired c s tb ta shards clk s' k g :
  tb <= ta -> reopen c s tb ta shards clk = ReOk s' -> In (k, g) (kv s) ->
  (ttl_on c = false \/ g_exp g = 0 \/ ta <= g_exp g) -> In (k, g) (kv s').
Proof.
  intros W R Hin HE. apply reopen_spec in R as [-> _]. apply filter_In. split; [exact Hin|].
  unfold visible_now. cbn [snd]. rewrite (expired_no c g _ _ W HE). reflexivity.
Qed.

(* an insert over an existing key takes effect iff its timestamp is greater than the current one *)
Theorem insert_effect_iff c s e k v t old :
  find k (kv s) = Some old -> validate_kv c k v = None ->
  let r := step c s (Insert k v (Some t) 0 false) e in
  t <> 0 ->
  (t <= g_ts old -> r = (s, OErr Older)) /\
  (g_ts old < t -> snd r = OBool false -> find k (kv (fst r)) = Some (mkgen v t 0)).
Proof.
  intros HF HV r Ht. subst r. cbn [step andb]. rewrite HV, (resolve_ts_explicit s e t Ht), HF.
  replace (if ttl_on c then expiry_of t 0 else 0) with 0 by (destruct (ttl_on c); reflexivity).
  destruct (replace_spec c s e k old (Some t) t v 0 (OBool false)) as [L|L _|m' L _].
  - split; [reflexivity|lia].
  - split; [lia|discriminate].
  - split; [lia|]. intros _ _. cbn [fst kv]. rewrite find_upsert, list_eqb_refl. reflexivity.
Qed.

(* a delete takes effect iff its timestamp is greater than the current one *)
Theorem delete_effect_iff c s e k t old :
  sorted (kv s) -> find k (kv s) = Some old -> validate_key k = None -> t <> 0 ->
  let r := step c s (Delete k (Some t)) e in
  (t <= g_ts old -> r = (s, OErr Older)) /\
  (g_ts old < t -> snd r = OUnit /\ find k (kv (fst r)) = None).
Proof.
  intros HS HF HV Ht r. subst r. cbn [step]. rewrite HV, (resolve_ts_explicit s e t Ht), HF.
  destruct (N.leb_spec t (g_ts old)); split; try lia; [reflexivity|].
  intros _. split; [reflexivity|]. exact (find_remove_same k _ HS).
Qed.

(* with the shard clock at or above the key's current timestamp (the invariant the store maintains by
   observing every published explicit timestamp and every recovered one) and not saturated, an
   automatically timestamped insert, delete, swap or patch is never answered Older *)
Theorem auto_never_older c s e k old :
  find k (kv s) = Some old ->
  g_ts old <= clock_get (e_shard e) (clocks s) -> clock_get (e_shard e) (clocks s) <> U64M ->
  (forall v ttl api, snd (step c s (Insert k v None ttl api) e) <> OErr Older) /\
  snd (step c s (Delete k None) e) <> OErr Older /\
  (forall x v ttl, snd (step c s (Cas k x v None ttl) e) <> OErr Older) /\
  snd (step c s (JsonPatch k None) e) <> OErr Older.
Proof.
  intros HF HC HS.
  assert (LT : forall t, auto_ok (clock_get (e_shard e) (clocks s)) t (e_tb e) (e_ta e) = true -> g_ts old < t).
  { intros t A. apply auto_exceeds in A; [lia|exact HS]. }
  assert (RP : forall t s1 v exp ok, g_ts old < t -> ok <> OErr Older ->
               snd (replace c s1 e k old None t v exp ok) <> OErr Older).
  { intros t s1 v exp ok L OK. destruct (replace_spec c s1 e k old None t v exp ok); [lia|discriminate|exact OK]. }
  repeat split.
  - intros v ttl api. cbn [step].
    destruct (api && negb (ttl_on c)); [discriminate|].
    destruct (api && negb (ttl_write_supported c)); [discriminate|].
    destruct (validate_kv c k v) eqn:V; [apply validate_kv_err in V as [->| ->]; discriminate|].
    destruct (resolve_ts_spec s e None) as [t cl A|]; [apply LT in A|discriminate].
    cbn [kv]. rewrite HF. apply RP; [exact A|discriminate].
  - cbn [step]. destruct (validate_key k) eqn:V; [apply validate_key_err in V as ->; discriminate|].
    destruct (resolve_ts_spec s e None) as [t cl A|]; [apply LT in A|discriminate].
    cbn [kv]. rewrite HF.
    destruct (N.leb_spec t (g_ts old)); [lia|discriminate].
  - intros x v ttl. cbn [step]. destruct (_ && _); [discriminate|].
    destruct (validate_kv c k v) eqn:V; [apply validate_kv_err in V as [->| ->]; discriminate|]. rewrite HF.
    destruct (expired _ _ _ _); [discriminate| |discriminate]. destruct (negb _); [discriminate|].
    destruct (resolve_ts_spec s e None) as [t cl A|]; [apply LT in A|discriminate].
    apply RP; [exact A|discriminate].
  - cbn [step]. destruct (validate_key k) eqn:V; [apply validate_key_err in V as ->; discriminate|].
    destruct (resolve_ts_spec s e None) as [t cl A|]; [apply LT in A|discriminate].
    cbn [kv]. rewrite HF.
    destruct (N.leb_spec t (g_ts old)); [lia|].
    destruct (expired _ _ _ _); [discriminate| |discriminate].
    destruct (e_patched e) as [v|]; [|discriminate].
    destruct (validate_kv c k v) eqn:V2; [apply validate_kv_err in V2 as [->| ->]; discriminate|].
    apply RP; [exact A|discriminate].
Qed.

(* a failing insert with an explicit timestamp leaves the clocks unchanged *)
Theorem failed_explicit_not_absorbed c s e k v t ttl api :
  t <> 0 -> is_err (snd (step c s (Insert k v (Some t) ttl api) e)) = true ->
  clocks (fst (step c s (Insert k v (Some t) ttl api) e)) = clocks s.
Proof.
  intros Ht. cbn [step].
  destruct (api && negb (ttl_on c)); [reflexivity|].
  destruct (api && negb (ttl_write_supported c)); [reflexivity|].
  destruct (validate_kv c k v); [reflexivity|]. rewrite (resolve_ts_explicit s e t Ht).
  destruct (find k (kv s)) as [old|].
  - destruct (replace_spec c s e k old (Some t) t v (if ttl_on c then expiry_of t ttl else 0) (OBool false));
      [reflexivity|reflexivity|discriminate].
  - unfold create. destruct (reserve _ _ _); [discriminate|reflexivity].
Qed.

(* the near-maximal timestamp saturates a shard: the unrestricted statement is false (known finding F2) *)
Example clock_saturation_refuted :
  let c := mkcfg false false 3 None 168 in
  let a := [97] in let b := [98] in
  let e1 := mkenv 5 (U64M - 1) 1000 1001 0 None in     (* insert A at 2^64-2 (explicit) *)
  let e2 := mkenv 5 U64M 1002 1003 0 None in           (* automatic write on A: shard -> 2^64-1 *)
  let e3 := mkenv 5 U64M 1004 1005 0 None in           (* first automatic write on B (same shard) *)
  let e4 := mkenv 5 U64M 1006 1007 0 None in           (* second automatic write on B *)
  let s1 := fst (step c init (Insert a [1] (Some (U64M - 1)) 0 false) e1) in
  let s2 := fst (step c s1 (Insert a [2] None 0 false) e2) in
  let s3 := fst (step c s2 (Insert b [3] None 0 false) e3) in
  snd (step c s3 (Insert b [4] None 0 false) e4) = OErr Older.
Proof. vm_compute. reflexivity. Qed.

(* C19 at the level of the shard counters: a shard's counter is the length of its queue in every
   reachable state, so the coordinator, which reads only counters, wakes the owner of every shard
   that has a backlog; and an accepted entry is always written, queued or in its owner's hands,
   whatever a pass sends back. *)
From Coq Require Import List Arith Bool Lia.
From Feox Require Import Model.WriteBehind Model.Backlog Proofs.ListFacts Proofs.WriteBehindProofs.
Import ListNotations.

Record BlInv (S : nat) (st : bl) : Prop := mkBlInv {
  bi_lb : length (b_bufs st) = S;
  bi_lc : length (b_cnts st) = S;
  bi_lh : length (b_hand st) = S;
  bi_cnt : forall s, s < S -> nth s (b_cnts st) 0 = length (nth s (b_bufs st) [])
}.

Lemma binit_inv W S : BlInv S (binit W S).
Proof.
  constructor; cbn; try apply repeat_length.
  intros s Hs. rewrite !nth_repeat. reflexivity.
Qed.

Lemma split_back_len hand : forall back, length (fst (split_back hand back)) + length (snd (split_back hand back)) = length hand.
Proof.
  induction hand as [|x t IH]; intros back; [reflexivity|]. cbn [split_back].
  specialize (IH (tl back)). destruct (split_back t (tl back)) as [r w].
  destruct (match back with b :: _ => b | [] => false end); cbn in *; lia.
Qed.

Lemma split_back_in hand : forall back x,
  In x hand <-> In x (fst (split_back hand back)) \/ In x (snd (split_back hand back)).
Proof.
  induction hand as [|y t IH]; intros back x; [cbn; tauto|]. cbn [split_back].
  specialize (IH (tl back) x). destruct (split_back t (tl back)) as [r w].
  destruct (match back with b :: _ => b | [] => false end); cbn in *; tauto.
Qed.

Lemma split_back_nil h : split_back h [] = ([], h).
Proof. induction h as [|y t IH]; [reflexivity|]. cbn [split_back tl]. rewrite IH. reflexivity. Qed.

Lemma BlInv_upd S st s f g hand wk wr :
  BlInv S st -> (forall l, f (length l) = length (g l)) -> length hand = S ->
  BlInv S (mkbl (upd s g (b_bufs st)) (upd s f (b_cnts st)) hand wk wr).
Proof.
  intros [Lb Lc _ C] Hfg Lh. constructor; cbn [b_bufs b_cnts b_hand]; rewrite ?length_upd; try assumption.
  intros s' Hs'. destruct (Nat.eq_dec s s') as [<-|Hne].
  - rewrite !nth_upd_same by lia. rewrite C by exact Hs'. apply Hfg.
  - rewrite !nth_upd_other by exact Hne. auto.
Qed.

Theorem bstep_inv W S st e : BlInv S st -> BlInv S (bstep W S st e).
Proof.
  intros Hinv. pose proof Hinv as [Lb Lc Lh C]. destruct e as [s x| |s|s back]; cbn [bstep].
  - destruct (s <? S); [|exact Hinv].
    apply BlInv_upd; [exact Hinv | | exact Lh]. intros l. rewrite app_length. reflexivity.
  - constructor; assumption.
  - destruct ((s <? S) && negb (nonempty (nth s (b_hand st) []))); [|exact Hinv].
    apply BlInv_upd; [exact Hinv | reflexivity | now rewrite length_upd].
  - destruct (s <? S); [|exact Hinv].
    destruct (split_back (nth s (b_hand st) []) back) as [r w].
    apply BlInv_upd; [exact Hinv | | now rewrite length_upd]. intros l. rewrite app_length. lia.
Qed.

Theorem brun_inv W S evs st : BlInv S st -> BlInv S (brun W S st evs).
Proof. apply fold_left_inv. exact (bstep_inv W S). Qed.

(* the counter the coordinator looks at is the length of the queue, in every reachable state *)
Theorem counter_is_the_backlog W S evs s :
  s < S -> nth s (b_cnts (brun W S (binit W S) evs)) 0 = length (nth s (b_bufs (brun W S (binit W S) evs)) []).
Proof. exact (bi_cnt _ _ (brun_inv W S evs _ (binit_inv W S)) s). Qed.

(* so a tick wakes the owner of every shard that has anything queued *)
Theorem tick_wakes_owner_of_backlog W S evs s x :
  0 < W -> s < S ->
  In x (nth s (b_bufs (brun W S (binit W S) evs)) []) ->
  nth (s mod W) (b_woken (bstep W S (brun W S (binit W S) evs) BTick)) false = true.
Proof.
  intros HW Hs Hx. cbn [bstep b_woken]. rewrite nth_map_seq by (apply Nat.mod_upper_bound; lia).
  unfold counted. rewrite (owner_sees W S s _ HW Hs); [apply orb_true_r|].
  rewrite counter_is_the_backlog by exact Hs.
  destruct (nth s (b_bufs _) []); [contradiction | reflexivity].
Qed.

(* nothing is dropped: every entry accepted into a shard is written, queued, or in its owner's hands *)
Definition somewhere (st : bl) (x : nat) : Prop :=
  In x (b_written st) \/ (exists s, In x (nth s (b_bufs st) [])) \/ (exists s, In x (nth s (b_hand st) [])).

Lemma in_upd_mono {A} (x : A) l s f s' :
  (forall y, In x y -> In x (f y)) -> In x (nth s' l []) -> In x (nth s' (upd s f l) []).
Proof.
  intros Hf H. destruct (Nat.eq_dec s s') as [<-|Hne]; [|rewrite nth_upd_other by exact Hne; exact H].
  destruct (Nat.lt_ge_cases s (length l)) as [Hl|Hl]; [rewrite nth_upd_same by exact Hl; exact (Hf _ H)|].
  rewrite nth_overflow in H by exact Hl. contradiction.
Qed.

Lemma somewhere_step W S st e x : BlInv S st -> somewhere st x -> somewhere (bstep W S st e) x.
Proof.
  intros [Lb Lc Lh C] H. destruct e as [s y| |s|s back]; cbn [bstep].
  - destruct (s <? S); [|exact H].
    destruct H as [H|[[s' H]|H]]; [left; exact H | | right; right; exact H].
    right. left. exists s'. apply in_upd_mono; [|exact H]. auto using in_or_app.
  - exact H.
  - destruct ((s <? S) && negb (nonempty (nth s (b_hand st) []))) eqn:G; [|exact H].
    apply andb_true_iff in G. destruct G as [Hs Hn]. apply Nat.ltb_lt in Hs.
    destruct H as [H|[[s' H]|[s' H]]]; [left; exact H| |]; unfold somewhere; cbn [b_written b_bufs b_hand].
    + (* what was queued in s is now in its owner's hand *)
      destruct (Nat.eq_dec s s') as [<-|Hne].
      * right. right. exists s. rewrite nth_upd_same by lia. exact H.
      * right. left. exists s'. rewrite nth_upd_other by exact Hne. exact H.
    + right. right. exists s'. rewrite nth_upd_other; [exact H|].
      intros <-. destruct (nth s (b_hand st) []); [contradiction | discriminate].
  - destruct (Nat.ltb_spec s S) as [Hs|Hs]; [|exact H].
    destruct (split_back (nth s (b_hand st) []) back) as [r w] eqn:E.
    destruct H as [H|[[s' H]|[s' H]]]; unfold somewhere; cbn [b_written b_bufs b_hand].
    + left. apply in_or_app. right. exact H.
    + right. left. exists s'. apply in_upd_mono; [|exact H]. auto using in_or_app.
    + (* the hand of s goes back to the queue or is written *)
      destruct (Nat.eq_dec s s') as [<-|Hne]; [|right; right; exists s'; rewrite nth_upd_other by exact Hne; exact H].
      apply (split_back_in _ back) in H. rewrite E in H. cbn [fst snd] in H. destruct H as [H|H].
      * right. left. exists s. rewrite nth_upd_same by lia. apply in_or_app. left. exact H.
      * left. apply in_or_app. left. apply -> in_rev. exact H.
Qed.

Theorem accepted_entry_is_never_dropped W S evs1 evs2 s x :
  s < S ->
  somewhere (brun W S (binit W S) (evs1 ++ BAdd s x :: evs2)) x.
Proof.
  intros Hs. unfold brun. rewrite fold_left_app. cbn [fold_left].
  set (st1 := fold_left (bstep W S) evs1 (binit W S)).
  assert (I1 : BlInv S st1) by (apply (brun_inv W S evs1 _ (binit_inv W S))).
  refine (proj2 (fold_left_inv (bstep W S) (fun st => BlInv S st /\ somewhere st x) _ evs2 _ _)).
  - intros st e [Hinv H]. auto using bstep_inv, somewhere_step.
  - split; [exact (bstep_inv W S st1 _ I1)|].
    cbn [bstep]. destruct (Nat.ltb_spec s S) as [_|Hn]; [|lia].
    right. left. exists s. cbn [b_bufs]. rewrite nth_upd_same by (rewrite (bi_lb _ _ I1); exact Hs).
    apply in_or_app. right. now left.
Qed.

(* a pass that its owner completes without sending anything back writes everything it took *)
Theorem completed_pass_writes_what_it_took W S st s x :
  BlInv S st -> s < S -> nth s (b_hand st) [] = [] -> In x (nth s (b_bufs st) []) ->
  In x (b_written (bstep W S (bstep W S st (BDrain s)) (BFinish s []))).
Proof.
  intros Hinv Hs He Hx. apply Nat.ltb_lt in Hs as Hs'.
  cbn [bstep]. rewrite Hs', He. cbn [nonempty negb andb b_hand b_written].
  rewrite nth_upd_same by (rewrite (bi_lh _ _ Hinv); exact Hs).
  rewrite split_back_nil. cbn [b_written]. apply in_or_app. left. apply -> in_rev. exact Hx.
Qed.

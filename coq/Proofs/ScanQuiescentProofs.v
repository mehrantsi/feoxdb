(* The scan over any quiescent data area (C10, and C05 from the reader's side): live records with
   pairwise distinct keys, completed retirement-marker runs and free blocks in any order.  The scan
   ends without error, indexes exactly the records, and the free-space manager it builds holds
   exactly the blocks no record extent covers (up to the end of the last record; open_image releases
   the tail behind it). *)
From Coq Require Import List NArith Bool Lia Arith.
From Feox Require Import Gen.Constants Model.Bytes Model.Codec
                         Model.FreeSpace Proofs.FreeSpaceProofs Model.MetaJournal Model.Recovery
                         Proofs.ListFacts Proofs.BytesProofs Proofs.RecoveryProofs Proofs.ScanAcceptsProofs.
Import ListNotations.
Local Open Scope N_scope.

Inductive item := IRec (r : rec) | IMark (n : N) | IFree.

Definition isize (version : N) (it : item) : N :=
  match it with IRec r => need_of version r | IMark n => n | IFree => 1 end.

Definition iblocks (version sector : N) (it : item) : image :=
  match it with
  | IRec r => chunk_blocks (encode_extent version sector r) (N.to_nat (need_of version r))
  | IMark n => marker_run sector n (N.to_nat n)
  | IFree => [zeros BLOCK]
  end.

Fixpoint ilayout (version sector : N) (its : list item) : image :=
  match its with
  | [] => []
  | it :: t => iblocks version sector it ++ ilayout version (sector + isize version it) t
  end.

Fixpoint isum (version : N) (its : list item) : N :=
  match its with [] => 0 | it :: t => isize version it + isum version t end.

Fixpoint recs_of (its : list item) : list rec :=
  match its with [] => [] | IRec r :: t => r :: recs_of t | _ :: t => recs_of t end.

Definition item_ok (version : N) (it : item) : Prop :=
  match it with IRec r => rec_ok version r | IMark n => 0 < n | IFree => True end.

(* block b lies in the extent of a record of the layout *)
Fixpoint covered (version sector : N) (its : list item) (b : N) : Prop :=
  match its with
  | [] => False
  | it :: t =>
      (match it with IRec r => sector <= b < sector + need_of version r | _ => False end)
      \/ covered version (sector + isize version it) t b
  end.

Section EntryOf.
Variable version : N.
Definition entry_of (r : rec) (s : N) : entry :=
  mkentry (r_key r) (r_ts r) (if has_expiry version then r_exp r else 0) (N.of_nat (length (r_value r))) s.
End EntryOf.

Lemma covered_ge version its : forall sector b, covered version sector its b -> sector <= b.
Proof.
  induction its as [|it t IH]; intros sector b H; [destruct H|]. cbn [covered] in H. destruct H as [H|H].
  - destruct it; try contradiction. lia.
  - specialize (IH _ _ H). lia.
Qed.

Lemma iblocks_length version sector it : length (iblocks version sector it) = N.to_nat (isize version it).
Proof.
  destruct it as [r|n|]; cbn [iblocks isize]; [apply chunk_blocks_length|apply marker_run_length|reflexivity].
Qed.

Lemma isize_pos version it : item_ok version it -> 0 < isize version it.
Proof. destruct it as [r|n|]; cbn; intros H; [apply need_of_pos; exact H|exact H|lia]. Qed.

Lemma ilayout_length version its : forall sector, Forall (item_ok version) its ->
  length (ilayout version sector its) = N.to_nat (isum version its).
Proof.
  induction its as [|it t IH]; intros sector H; [reflexivity|]. cbn [ilayout isum].
  rewrite app_length, iblocks_length, IH by exact (Forall_inv_tail H). lia.
Qed.

Lemma items_le_blocks version its : Forall (item_ok version) its -> (length its <= N.to_nat (isum version its))%nat.
Proof.
  induction its as [|it t IH]; intros H; [cbn; lia|]. cbn [length isum].
  pose proof (isize_pos version it (Forall_inv H)). specialize (IH (Forall_inv_tail H)). lia.
Qed.

(* The free-space manager while the scan stands at `sector`: well formed, sized for the whole device,
   and free only below the end of the last record indexed (DS is FEOX_DATA_START_BLOCK). *)
Record SInv (total sector : N) (st : rstate) : Prop := {
  si_inv : Inv (rs_fs st);
  si_dev : dev_sectors (rs_fs st) = total;
  si_lo : DS <= rs_last_end st;
  si_hi : rs_last_end st <= sector;
  si_free : forall b, free (rs_fs st) b -> b < rs_last_end st
}.

Lemma SInv_le total sector sector' st : SInv total sector st -> sector <= sector' -> SInv total sector' st.
Proof. intros [I D Lo Hi Fr] H. constructor; try assumption. lia. Qed.

(* the state open_image starts the scan with *)
Lemma SInv_initial total st0 :
  rs_fs st0 = mkfs [] (total * FEOX_BLOCK_SIZE) 0 0 -> rs_last_end st0 = FEOX_DATA_START_BLOCK ->
  total * FEOX_BLOCK_SIZE < U64 -> FEOX_DATA_START_BLOCK < total ->
  SInv total FEOX_DATA_START_BLOCK st0.
Proof.
  intros Hfs Hle Hu Hpos.
  assert (D : dev_sectors (rs_fs st0) = total) by (rewrite Hfs; unfold dev_sectors; cbn; apply N.div_mul; unfold FEOX_BLOCK_SIZE; lia).
  constructor; [|exact D|rewrite Hle; lia ..|rewrite Hfs; intros b Hb; destruct (freel_nil b Hb)].
  constructor; [rewrite D; exact Hpos|rewrite Hfs; exact Hu|rewrite Hfs; exact I|rewrite Hfs; reflexivity ..].
Qed.

Lemma fs_release_ok st a n :
  Inv (rs_fs st) -> release_ok a n (rs_fs st) ->
  exists f, fs_release st a n = Ok (with_fs st f) /\ Inv f /\ dev_sectors f = dev_sectors (rs_fs st) /\
    (forall b, free f b <-> free (rs_fs st) b \/ a <= b < a + n).
Proof.
  intros I Okk. unfold fs_release.
  destruct (release_accepts a n (rs_fs st) I Okk) as (f & E & I' & D' & F').
  rewrite E. exists f. unfold dev_sectors. rewrite D'. auto.
Qed.

Lemma gap_release total sector st : SInv total sector st -> sector <= total ->
  exists f, gap st sector = Ok (with_fs st f) /\ Inv f /\ dev_sectors f = total /\
    (forall b, free f b <-> free (rs_fs st) b \/ rs_last_end st <= b < sector).
Proof.
  intros [I D Lo Hi Fr] Ht. unfold gap. destruct (N.ltb_spec (rs_last_end st) sector) as [Hlt|Hge].
  - destruct (fs_release_ok st (rs_last_end st) (sector - rs_last_end st) I) as (f & R & I' & D' & F').
    { unfold release_ok. repeat split; try lia. intros b Hb Hf. specialize (Fr b Hf). lia. }
    exists f. do 3 (split; [congruence|]). intros b. rewrite F'. split; (intros [H|H]; [left; exact H|right; lia]).
  - exists (rs_fs st). rewrite with_fs_same. do 3 (split; [assumption || reflexivity|]).
    intros b. split; [left; assumption|intros [H|H]; [exact H|lia]].
Qed.

Section Scan.
Variable c : rcfg.
Variable version total : N.

Definition item_step (sector : N) (it : item) (st : rstate) : res rstate :=
  match it with IRec r => index_record c version sector r st | _ => Ok st end.

Fixpoint irun (sector : N) (its : list item) (st : rstate) : res rstate :=
  match its with
  | [] => Ok st
  | it :: t => do st' <- item_step sector it st; irun (sector + isize version it) t st'
  end.

Theorem irun_reads_a_quiescent_data_area : forall its sector st,
  Forall (item_ok version) its -> distinct_keys (recs_of its) ->
  (forall r, In r (recs_of its) -> idx_find (r_key r) (rs_idx st) = None) ->
  SInv total sector st ->
  total = sector + isum version its ->
  exists st',
    irun sector its st = Ok st' /\
    SInv total total st' /\ rs_last_end st <= rs_last_end st' /\
    (forall r, In r (recs_of its) -> exists s, idx_find (r_key r) (rs_idx st') = Some (entry_of version r s)) /\
    (forall k e, idx_find k (rs_idx st) = Some e -> (forall r, In r (recs_of its) -> list_eqb (r_key r) k = false) ->
                 idx_find k (rs_idx st') = Some e) /\
    rs_count st' = rs_count st + N.of_nat (length (recs_of its)) /\
    rs_retired st' = rs_retired st /\
    (forall b, free (rs_fs st') b <->
               free (rs_fs st) b \/ (rs_last_end st <= b < rs_last_end st' /\ ~ covered version sector its b)) /\
    (forall b, rs_last_end st' <= b -> ~ covered version sector its b).
Proof.
  induction its as [|it t IH]; intros sector st Hok Hd Hfresh SI Htot; cbn [isum] in Htot.
  - exists st. split; [reflexivity|]. split; [apply (SInv_le _ _ _ _ SI); lia|].
    split; [lia|]. split; [intros r []|]. split; [intros k e Hk _; exact Hk|]. split; [cbn; lia|].
    split; [reflexivity|]. split; [|intros b _ []].
    intros b. split; [intros Hb; left; exact Hb|intros [Hb|[Hb _]]; [exact Hb|lia]].
  - pose proof (Forall_inv_tail Hok) as Ht. pose proof (isize_pos version it (Forall_inv Hok)) as SP.
    rewrite N.add_assoc in Htot. pose proof (SInv_le total sector (sector + isize version it) st SI ltac:(lia)) as SIt.
    cbn [irun]. destruct it as [r|n|]; cbn [item_step bind recs_of isize] in Hd, Hfresh, Htot, SP, SIt |- *.
    1: { (* a record: the gap in front of it is released, its key is indexed *)
      destruct Hd as [Hd1 Hd2].
      destruct (gap_release total sector st SI ltac:(lia)) as (f & G & If & Df & Ff).
      rewrite (index_record_fresh c version sector r st (Hfresh r (or_introl eq_refl))), G. cbn [bind].
      set (st1 := index_one c version sector r (with_fs st f)). destruct SI as [I D Lo Hi Fr].
      assert (SI1 : SInv total (sector + need_of version r) st1).
      { constructor; cbn [st1 index_one with_fs rs_fs rs_last_end]; try assumption; try lia.
        intros b Hb. apply Ff in Hb. destruct Hb as [Hb|Hb]; [specialize (Fr b Hb); lia|lia]. }
      assert (Hfresh1 : forall r', In r' (recs_of t) -> idx_find (r_key r') (rs_idx st1) = None).
      { intros r' Hr'. cbn [st1 index_one with_fs rs_idx]. rewrite idx_find_upsert. cbn [e_key].
        rewrite (Hd1 r' Hr'). apply Hfresh. right. exact Hr'. }
      destruct (IH (sector + need_of version r) st1 Ht Hd2 Hfresh1 SI1 ltac:(lia))
        as (st' & R & SI' & Mono & Found & Kept & Cnt & Ret & Fr' & Beyond).
      cbn [st1 index_one with_fs rs_last_end rs_count rs_retired rs_fs rs_idx] in Mono, Cnt, Ret, Fr', Kept.
      exists st'. split; [exact R|]. split; [exact SI'|]. split; [lia|]. split; [|split; [|split; [|split; [|split]]]].
      * intros r' [<-|Hr']; [|exact (Found r' Hr')]. exists sector. apply Kept.
        -- rewrite idx_find_upsert. cbn [e_key]. rewrite list_eqb_refl. reflexivity.
        -- intros r' Hr'. rewrite list_eqb_sym. exact (Hd1 r' Hr').
      * intros k e Hk Hn. apply Kept; [|intros r' Hr'; apply Hn; right; exact Hr'].
        rewrite idx_find_upsert. cbn [e_key]. rewrite (Hn r (or_introl eq_refl)). exact Hk.
      * cbn [length]. lia.
      * exact Ret.
      * intros b. rewrite Fr', Ff. cbn [covered]. split.
        -- intros [[Hx|Hx]|[Hx1 Hx2]]; [left; exact Hx|right; split; [lia|] ..].
           ++ intros [Hc|Hc]; [lia|]. apply covered_ge in Hc. lia.
           ++ intros [Hc|Hc]; [lia|contradiction].
        -- intros [Hx|[H1 H2]]; [left; left; exact Hx|].
           destruct (N.lt_ge_cases b sector) as [Hb|Hb]; [left; right; lia|].
           destruct (N.lt_ge_cases b (sector + need_of version r)) as [Hb2|Hb2]; [exfalso; apply H2; left; lia|].
           right. split; [lia|]. intros Hc. apply H2. right. exact Hc.
      * intros b Hb [Hc|Hc]; [lia|]. exact (Beyond b Hb Hc). }
    (* a completed marker run or a free block: the state stays, no block is covered *)
    all: destruct (IH _ st Ht Hd Hfresh SIt Htot)
           as (st' & R & SI' & Mono & Found & Kept & Cnt & Ret & Fr' & Beyond).
    all: exists st'; repeat (split; [assumption|]); cbn [covered].
    all: split; [intros b; rewrite Fr'; tauto|intros b Hb [[]|Hc]; exact (Beyond b Hb Hc)].
Qed.

Lemma irun_ambiguous : forall its sector st st', irun sector its st = Ok st' -> rs_ambiguous st' = rs_ambiguous st.
Proof.
  induction its as [|it t IH]; intros sector st st' H; cbn [irun] in H; [congruence|].
  destruct (item_step sector it st) as [st1| |] eqn:E; try discriminate. cbn [bind] in H. rewrite (IH _ _ _ H).
  destruct it as [r|n|]; cbn [item_step] in E; try congruence.
  destruct (index_record_inv _ _ _ _ _ _ E) as (f & ->). apply index_pure_ambiguous.
Qed.

Variable jl : list (N * N).
Variable img : image.
Hypothesis Hmode : c_ro c = false \/ jl = [].

Lemma scan_step_item sector it rest st :
  item_ok version it -> (forall n, it = IMark n -> has_token version = true /\ total <= U64MAX) ->
  sector + isize version it <= total ->
  scan_step c version total sector (iblocks version sector it ++ rest) st jl =
  (do st' <- item_step sector it st; Ok (Advance (sector + isize version it) st' jl)).
Proof.
  intros Hit Hm Hin. destruct it as [r|n|]; cbn [iblocks isize item_step bind].
  - apply scan_step_on_encoded; assumption.
  - destruct (Hm n eq_refl). apply scan_step_skips_a_complete_marker_run; assumption.
  - apply scan_step_skips_a_zero_block. exact Hmode.
Qed.

(* marker runs are only understood in a format with tokens *)
Theorem scan_ilayout : forall its fuel sector st,
  Forall (item_ok version) its ->
  (forall n, In (IMark n) its -> has_token version = true /\ total <= U64MAX) ->
  skipn (N.to_nat sector) img = ilayout version sector its ->
  total = sector + isum version its ->
  (length its < fuel)%nat ->
  scan fuel c version total img sector st jl = irun sector its st.
Proof.
  induction its as [|it t IH]; intros fuel sector st Hok Hm Himg Htot Hfuel; cbn [isum] in Htot.
  - apply scan_done. lia.
  - pose proof (isize_pos version it (Forall_inv Hok)) as SP.
    destruct fuel as [|f]; [cbn in Hfuel; lia|]. cbn [length] in Hfuel. cbn [ilayout] in Himg. cbn [irun].
    assert (Hin : sector + isize version it <= total) by lia.
    rewrite (scan_advance c version total img jl f sector st _ _ _ _ Himg ltac:(lia) SP
               (scan_step_item sector it _ st (Forall_inv Hok) (fun n E => Hm n (or_introl E)) Hin)).
    destruct (item_step sector it st) as [st'| |]; cbn [bind]; try reflexivity.
    apply IH; [exact (Forall_inv_tail Hok)|intros n H; exact (Hm n (or_intror H))| |lia|lia].
    rewrite N2Nat.inj_add. exact (skipn_past _ _ _ _ _ Himg (iblocks_length version sector it)).
Qed.

(* from the state open_image starts the scan with, and with the release of the tail it does after
   the scan: every block of the data area is free exactly when no record's extent covers it *)
Theorem scan_of_a_quiescent_data_area its st0 fuel :
  (forall n, In (IMark n) its -> has_token version = true) ->
  (length its < fuel)%nat ->
  rs_fs st0 = mkfs [] (total * FEOX_BLOCK_SIZE) 0 0 -> rs_last_end st0 = FEOX_DATA_START_BLOCK -> rs_idx st0 = [] ->
  total * FEOX_BLOCK_SIZE < U64 ->
  Forall (item_ok version) its -> distinct_keys (recs_of its) ->
  skipn (N.to_nat FEOX_DATA_START_BLOCK) img = ilayout version FEOX_DATA_START_BLOCK its ->
  total = FEOX_DATA_START_BLOCK + isum version its -> 0 < isum version its ->
  exists st' f,
    scan fuel c version total img FEOX_DATA_START_BLOCK st0 jl = Ok st' /\
    irun FEOX_DATA_START_BLOCK its st0 = Ok st' /\
    gap st' total = Ok (with_fs st' f) /\ Inv f /\ dev_sectors f = total /\
    (forall r, In r (recs_of its) -> exists s, idx_find (r_key r) (rs_idx st') = Some (entry_of version r s)) /\
    rs_count st' = rs_count st0 + N.of_nat (length (recs_of its)) /\
    rs_retired st' = rs_retired st0 /\
    (forall b, FEOX_DATA_START_BLOCK <= b < total -> (free f b <-> ~ covered version FEOX_DATA_START_BLOCK its b)).
Proof.
  intros Hmarks Hfuel Hfs Hle Hidx Hu Hok Hd Himg Htot Hpos.
  assert (Hmax : total <= U64MAX) by (unfold U64, U64MAX, FEOX_BLOCK_SIZE in *; lia).
  assert (SI0 : SInv total FEOX_DATA_START_BLOCK st0) by (apply SInv_initial; try assumption; lia).
  assert (Hfresh : forall r, In r (recs_of its) -> idx_find (r_key r) (rs_idx st0) = None) by (intros r _; rewrite Hidx; reflexivity).
  rewrite (scan_ilayout its fuel _ st0 Hok (fun n H => conj (Hmarks n H) Hmax) Himg Htot Hfuel).
  destruct (irun_reads_a_quiescent_data_area its _ st0 Hok Hd Hfresh SI0 Htot)
    as (st' & R & SI' & Mono & Found & _ & Cnt & Ret & Fr' & Beyond).
  destruct (gap_release total total st' SI' (N.le_refl _)) as (f & G & If & Df & GF).
  exists st', f. repeat (split; [assumption|]).
  intros b Hb. rewrite GF, Fr'. rewrite Hle in *. split.
  - intros [[Hf|[_ Hn]]|Hx]; [rewrite Hfs in Hf; destruct (freel_nil b Hf)|exact Hn|apply Beyond; lia].
  - intros Hn. destruct (N.lt_ge_cases b (rs_last_end st')) as [Hlt|Hge]; [left; right; split; [lia|exact Hn]|right; lia].
Qed.

Theorem quiescent_data_area_is_partitioned :
  has_token version = true -> total <= U64MAX ->
  forall its st0 fuel,
  (length its < fuel)%nat ->
  rs_fs st0 = mkfs [] (total * FEOX_BLOCK_SIZE) 0 0 -> rs_last_end st0 = FEOX_DATA_START_BLOCK -> rs_idx st0 = [] ->
  total * FEOX_BLOCK_SIZE < U64 ->
  Forall (item_ok version) its -> distinct_keys (recs_of its) ->
  skipn (N.to_nat FEOX_DATA_START_BLOCK) img = ilayout version FEOX_DATA_START_BLOCK its ->
  total = FEOX_DATA_START_BLOCK + isum version its -> 0 < isum version its ->
  exists st' st'',
    scan fuel c version total img FEOX_DATA_START_BLOCK st0 jl = Ok st' /\
    gap st' total = Ok st'' /\
    (forall r, In r (recs_of its) -> exists s, idx_find (r_key r) (rs_idx st'') = Some (entry_of version r s)) /\
    rs_count st'' = rs_count st0 + N.of_nat (length (recs_of its)) /\
    rs_retired st' = rs_retired st0 /\ rs_retired st'' = rs_retired st0 /\
    (forall b, FEOX_DATA_START_BLOCK <= b < total ->
               (free (rs_fs st'') b <-> ~ covered version FEOX_DATA_START_BLOCK its b)).
Proof.
  intros Htok _ its st0 fuel Hfuel Hfs Hle Hidx Hu Hok Hd Himg Htot Hpos.
  destruct (scan_of_a_quiescent_data_area its st0 fuel (fun _ _ => Htok) Hfuel Hfs Hle Hidx Hu Hok Hd Himg Htot Hpos)
    as (st' & f & Sc & _ & G & _ & _ & Found & Cnt & Ret & Part).
  exists st', (with_fs st' f). repeat (split; [assumption|]). exact Part.
Qed.

End Scan.

Lemma file_at_rest_sizes version img its :
  Forall (item_ok version) its ->
  skipn (N.to_nat FEOX_DATA_START_BLOCK) img = ilayout version FEOX_DATA_START_BLOCK its ->
  (17 <= length img)%nat ->
  N.of_nat (length img) = FEOX_DATA_START_BLOCK + isum version its /\ (length its < S (length img))%nat.
Proof.
  intros Hok Himg Hlen. pose proof (f_equal (@length block) Himg) as L.
  rewrite skipn_length, ilayout_length in L by exact Hok. pose proof (items_le_blocks _ _ Hok).
  unfold FEOX_DATA_START_BLOCK in *. lia.
Qed.

(* open_image (TTL off) on a file whose selected metadata copy decodes, whose journal decodes to
   "clear", and whose data area is a quiescent layout (with marker runs only if the format has
   tokens): it opens, leaves the file as it is, and reports exactly the records and the partition *)
Theorem open_of_a_quiescent_file c img m jgen jslot its :
  c_now c = None ->
  (17 <= length img)%nat ->
  let total := N.of_nat (length img) in
  let mb := if select_meta (nth_block img 0) (nth_block img (N.to_nat FEOX_METADATA_BACKUP_BLOCK))
            then nth_block img (N.to_nat FEOX_METADATA_BACKUP_BLOCK) else nth_block img 0 in
  list_eqb (firstn 8 mb) SIGNATURE = true -> decode_meta mb = Some m ->
  (forall n, In (IMark n) its -> has_token (m_version m) = true) ->
  decode_journal (slot_bytes img 0) (slot_bytes img 1) total = Some (jgen, jslot, []) ->
  total * FEOX_BLOCK_SIZE < U64 ->
  Forall (item_ok (m_version m)) its -> distinct_keys (recs_of its) ->
  skipn (N.to_nat FEOX_DATA_START_BLOCK) img = ilayout (m_version m) FEOX_DATA_START_BLOCK its ->
  exists st' f,
    irun c (m_version m) FEOX_DATA_START_BLOCK its
         (mkrs [] (mkfs [] (total * FEOX_BLOCK_SIZE) 0 0) 0 0 0 [] FEOX_DATA_START_BLOCK 0) = Ok st' /\
    gap st' total = Ok (with_fs st' f) /\
    open_image c img =
    (Ok (mkopened (m_version m) (rs_idx st') f (rs_count st') (rs_mem st') (rs_disk st') (rs_ambiguous st') img
                  (mkjpos jgen jslot)), img) /\
    Inv f /\ dev_sectors f = total /\
    (forall r, In r (recs_of its) -> exists s, idx_find (r_key r) (rs_idx st') = Some (entry_of (m_version m) r s)) /\
    rs_count st' = N.of_nat (length (recs_of its)) /\
    (forall b, FEOX_DATA_START_BLOCK <= b < total -> (free f b <-> ~ covered (m_version m) FEOX_DATA_START_BLOCK its b)).
Proof.
  intros Hnow Hlen total mb Hsig Hdec Hmarks Hj Hu Hok Hd Himg.
  destruct (file_at_rest_sizes _ _ _ Hok Himg Hlen) as [Htot Hfuel]. fold total in Htot.
  assert (Hpos : 0 < isum (m_version m) its) by (unfold total, FEOX_DATA_START_BLOCK in Htot; lia).
  destruct (scan_of_a_quiescent_data_area c (m_version m) total [] img (or_intror eq_refl) its
              (mkrs [] (mkfs [] (total * FEOX_BLOCK_SIZE) 0 0) 0 0 0 [] FEOX_DATA_START_BLOCK 0) _ Hmarks Hfuel
              eq_refl eq_refl eq_refl Hu Hok Hd Himg Htot Hpos)
    as (st' & f & Sc & R & G & If & Df & Found & Cnt & Ret & Part).
  exists st', f. split; [exact R|]. split; [exact G|]. split; [|repeat (split; [assumption|]); exact Part].
  (* the journal is clear: in either mode nothing is replayed and the scan is handed no extents *)
  apply (open_image_nothing_retired c img m jgen jslot [] img (mkjpos jgen jslot) st' (with_fs st' f) Hnow Hlen Hsig Hdec Hj);
    [destruct (c_ro c); reflexivity|destruct (c_ro c); exact Sc|exact Ret|exact G].
Qed.

Theorem open_reads_a_quiescent_file_in_either_mode c img m jgen jslot its :
  c_now c = None ->
  (17 <= length img)%nat ->
  let total := N.of_nat (length img) in
  let mb := if select_meta (nth_block img 0) (nth_block img (N.to_nat FEOX_METADATA_BACKUP_BLOCK))
            then nth_block img (N.to_nat FEOX_METADATA_BACKUP_BLOCK) else nth_block img 0 in
  list_eqb (firstn 8 mb) SIGNATURE = true -> decode_meta mb = Some m -> has_token (m_version m) = true ->
  decode_journal (slot_bytes img 0) (slot_bytes img 1) total = Some (jgen, jslot, []) ->
  total * FEOX_BLOCK_SIZE < U64 ->
  Forall (item_ok (m_version m)) its -> distinct_keys (recs_of its) ->
  skipn (N.to_nat FEOX_DATA_START_BLOCK) img = ilayout (m_version m) FEOX_DATA_START_BLOCK its ->
  exists o,
    open_image c img = (Ok o, img) /\
    o_version o = m_version m /\ o_img o = img /\
    (forall r, In r (recs_of its) -> exists s, idx_find (r_key r) (o_idx o) = Some (entry_of (m_version m) r s)) /\
    o_count o = N.of_nat (length (recs_of its)) /\
    (forall b, FEOX_DATA_START_BLOCK <= b < total ->
               (free (o_fs o) b <-> ~ covered (m_version m) FEOX_DATA_START_BLOCK its b)).
Proof.
  intros Hnow Hlen total mb Hsig Hdec Htok Hj Hu Hok Hd Himg.
  destruct (open_of_a_quiescent_file c img m jgen jslot its Hnow Hlen Hsig Hdec (fun _ _ => Htok) Hj Hu Hok Hd Himg)
    as (st' & f & _ & _ & E & _ & _ & Found & Cnt & Part).
  eexists. split; [exact E|]. cbn [o_version o_img o_idx o_count o_fs]. auto.
Qed.

(* C04 on files at rest: the open leaves the bytes alone, so opening again -- any number of times --
   gives the same answer *)
Fixpoint reopen (c : rcfg) (n : nat) (img : image) : res opened * image :=
  match n with
  | O => open_image c img
  | S k => reopen c k (snd (open_image c img))
  end.

Lemma reopen_fixed c img n : snd (open_image c img) = img -> reopen c n img = open_image c img.
Proof. intros S. induction n as [|k IH]; [reflexivity|]. cbn [reopen]. rewrite S. exact IH. Qed.

Theorem reopening_a_quiescent_file_changes_nothing c img m jgen jslot its n :
  c_ro c = false -> c_now c = None ->
  (17 <= length img)%nat ->
  let total := N.of_nat (length img) in
  let mb := if select_meta (nth_block img 0) (nth_block img (N.to_nat FEOX_METADATA_BACKUP_BLOCK))
            then nth_block img (N.to_nat FEOX_METADATA_BACKUP_BLOCK) else nth_block img 0 in
  list_eqb (firstn 8 mb) SIGNATURE = true -> decode_meta mb = Some m -> has_token (m_version m) = true ->
  decode_journal (slot_bytes img 0) (slot_bytes img 1) total = Some (jgen, jslot, []) ->
  total * FEOX_BLOCK_SIZE < U64 ->
  Forall (item_ok (m_version m)) its -> distinct_keys (recs_of its) ->
  skipn (N.to_nat FEOX_DATA_START_BLOCK) img = ilayout (m_version m) FEOX_DATA_START_BLOCK its ->
  reopen c n img = open_image c img /\ snd (open_image c img) = img.
Proof.
  intros _ Hnow Hlen total mb Hsig Hdec Htok Hj Hu Hok Hd Himg.
  destruct (open_reads_a_quiescent_file_in_either_mode c img m jgen jslot its Hnow Hlen Hsig Hdec Htok Hj Hu Hok Hd Himg) as (o & E & _).
  assert (S : snd (open_image c img) = img) by (rewrite E; reflexivity).
  split; [apply reopen_fixed|]; exact S.
Qed.

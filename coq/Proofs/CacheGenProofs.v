(* Proofs about Model/CacheGen.v: everything the store holds on to (the table, readers in flight,
   results, cache entries) names a generation that exists with the key and bytes recorded for it
   (of a cache entry only the bytes are compared), under every schedule; hence a hit serves the
   bytes of the generation asked for, and the store with the cache is a behaviour of the store
   without. *)
From Coq Require Import List NArith Bool Lia.
From Feox Require Import Model.Sched Model.CacheGen Proofs.AssocProofs Proofs.ListFacts.
Import ListNotations.
Local Open Scope N_scope.

Lemma cg_remove_sub {c k g e} : In e (cg_remove c k g) -> In e c.
Proof.
  induction c as [|x t IH]; cbn [cg_remove In]; [auto|].
  destruct (_ && _); cbn [In]; tauto.
Qed.

Lemma cg_insert_sub {gens c k v g e} : In e (cg_insert gens c k v g) -> In e c \/ e = mkcent k g v.
Proof.
  induction c as [|x t IH]; cbn [cg_insert In]; [intuition|].
  destruct (ce_k x =? k); [destruct (can_replace gens (ce_tag x) g)|]; cbn [In]; intuition.
Qed.

Lemma cg_get_in {c k g v} : cg_get c k (Some g) = Some v -> exists e, In e c /\ ce_k e = k /\ ce_tag e = Some g /\ ce_v e = v.
Proof.
  induction c as [|x t IH]; cbn [cg_get]; intros H; [discriminate|].
  destruct ((ce_k x =? k) && tag_is g x) eqn:E.
  - apply andb_true_iff in E as [Ek%N.eqb_eq Et]. unfold tag_is in Et.
    destruct (ce_tag x) as [t0|] eqn:T; [|discriminate]. apply N.eqb_eq in Et.
    exists x. repeat split; auto using in_eq; congruence.
  - destruct (IH H) as (e & Hi & He). exists e. auto using in_cons.
Qed.

Lemma cg_entry_value_get c k g : cg_entry_value c k g = cg_get c k (Some g).
Proof. induction c as [|x t IH]; cbn [cg_entry_value cg_get]; [reflexivity|]. rewrite IH. reflexivity. Qed.

(* at most one entry per key *)
Definition ckeys (c : list cent) : list N := map ce_k c.

Lemma cg_remove_nodup c k g : NoDup (ckeys c) -> NoDup (ckeys (cg_remove c k g)).
Proof.
  induction c as [|x t IH]; cbn [cg_remove]; intros H; [exact H|].
  inversion H as [|? ? Hn Ht]; subst.
  destruct ((ce_k x =? k) && _); [exact Ht|].
  cbn [ckeys map]. constructor; [|auto].
  intros (e & Ke & Hi)%in_map_iff. apply Hn. rewrite <- Ke. apply in_map. exact (cg_remove_sub Hi).
Qed.

Lemma cg_insert_nodup gens c k v g : NoDup (ckeys c) -> NoDup (ckeys (cg_insert gens c k v g)).
Proof.
  induction c as [|y t IH]; cbn [cg_insert]; intros H.
  - cbn. constructor; [intros []|constructor].
  - inversion H as [|? ? Hn Ht]; subst. destruct (N.eqb_spec (ce_k y) k) as [E|NE].
    + destruct (can_replace gens (ce_tag y) g); [|exact H].
      cbn [ckeys map ce_k]. constructor; [rewrite <- E; exact Hn|exact Ht].
    + cbn [ckeys map]. constructor; [|auto].
      intros (e & Ke & Hi)%in_map_iff.
      destruct (cg_insert_sub Hi) as [H1| ->]; [|exact (NE (eq_sym Ke))].
      apply Hn. rewrite <- Ke. apply in_map. exact H1.
Qed.

(* generation g exists and was created for key k with bytes v *)
Definition is_gen (gens : list (N * grec)) (g k v : N) : Prop :=
  exists r, aget g gens = Some r /\ gr_key r = k /\ gr_val r = v.

(* what every step does to the generation table: it only grows, and a generation's key and
   bytes never change *)
Definition gext (g1 g2 : list (N * grec)) : Prop := forall g k v, is_gen g1 g k v -> is_gen g2 g k v.

Definition fresh (nid : N) (gens : list (N * grec)) : Prop := forall g, nid <= g -> aget g gens = None.

Lemma gext_refl g : gext g g.
Proof. intros x k v H. exact H. Qed.

Lemma gext_upd gens g f :
  (forall r, gr_key (f r) = gr_key r /\ gr_val (f r) = gr_val r) -> gext gens (upd_gen gens g f).
Proof.
  intros Hf x k v (r & A & K & V). unfold upd_gen. destruct (aget g gens) as [r0|] eqn:G; [|exists r; auto].
  unfold is_gen. rewrite aget_aset. destruct (N.eqb_spec x g) as [->|_]; [|exists r; auto].
  exists (f r0). assert (r0 = r) by congruence. subst r0. destruct (Hf r) as [Kf Vf]. repeat split; congruence.
Qed.

Lemma gext_kill gens g : gext gens (kill gens g).
Proof. apply gext_upd. intros r. split; reflexivity. Qed.

Lemma upd_gen_dom gens g f x : aget x (upd_gen gens g f) = None <-> aget x gens = None.
Proof.
  unfold upd_gen. destruct (aget g gens) as [r0|] eqn:G; [|tauto].
  rewrite aget_aset. destruct (N.eqb_spec x g) as [->|_]; [|tauto].
  rewrite G. split; discriminate.
Qed.

Lemma fresh_upd n gens g f : fresh n gens -> fresh n (upd_gen gens g f).
Proof. intros F x Hx. apply upd_gen_dom. exact (F x Hx). Qed.

Lemma fresh_kill n gens g : fresh n gens -> fresh n (kill gens g).
Proof. apply fresh_upd. Qed.

Definition CacheOK gens (c : list cent) : Prop :=
  forall e g, In e c -> ce_tag e = Some g -> exists k, is_gen gens g k (ce_v e).
Definition TblOK gens (t : list (N * N)) : Prop :=
  forall k g, aget k t = Some g -> exists v, is_gen gens g k v.
Definition StOK gens (st : rdst) : Prop :=
  match st with RHold k g => exists v, is_gen gens g k v | RLoaded k g v => is_gen gens g k v end.
Definition RdOK gens (rd : list (N * rdst)) : Prop := forall i st, aget i rd = Some st -> StOK gens st.
Definition OutOK gens (out : list (N * N * option (N * N))) : Prop :=
  forall i k g v, In (i, k, Some (g, v)) out -> is_gen gens g k v.

Record BInv (s : bst) : Prop := mkBInv {
  bi_fresh : fresh (b_nid s) (b_gens s);
  bi_cache : CacheOK (b_gens s) (b_cache s);
  bi_tbl : TblOK (b_gens s) (b_tbl s);
  bi_rd : RdOK (b_gens s) (b_rd s);
  bi_out : OutOK (b_gens s) (b_out s);
  bi_nodup : NoDup (ckeys (b_cache s))
}.

Lemma binit_inv : BInv binit.
Proof.
  constructor; cbn [binit b_gens b_tbl b_nid b_cache b_rd b_out]; try easy. constructor.
Qed.

Lemma TblOK_aset gens t k g v : TblOK gens t -> is_gen gens g k v -> TblOK gens (aset k g t).
Proof.
  intros T G k0 g0 H. apply aget_aset_some in H.
  destruct H as [[-> ->]|[_ H]]; [exists v; exact G | exact (T _ _ H)].
Qed.

Lemma TblOK_adel gens t k : TblOK gens t -> TblOK gens (adel k t).
Proof. intros T k0 g0 H. apply aget_adel_some in H. exact (T _ _ (proj1 H)). Qed.

Lemma CacheOK_remove gens c k g : CacheOK gens c -> CacheOK gens (cg_remove c k g).
Proof. intros C e g0 He. apply C. exact (cg_remove_sub He). Qed.

Lemma CacheOK_insert gens gens0 c k v g : CacheOK gens c -> is_gen gens g k v -> CacheOK gens (cg_insert gens0 c k v (Some g)).
Proof.
  intros C G e g0 He Ht. destruct (cg_insert_sub He) as [H| ->]; [exact (C e g0 H Ht)|].
  injection Ht as <-. exists k. exact G.
Qed.

(* a step that only extends the generations keeps every reference good *)
Lemma binv_gext {s gens'} : BInv s -> gext (b_gens s) gens' ->
  CacheOK gens' (b_cache s) /\ TblOK gens' (b_tbl s) /\ RdOK gens' (b_rd s) /\ OutOK gens' (b_out s).
Proof.
  intros [_ C T R O _] X. repeat split.
  - intros e g He Ht. destruct (C e g He Ht) as [k G]. eauto.
  - intros k g H. destruct (T k g H) as [v G]. eauto.
  - intros i st H. specialize (R i st H). destruct st as [k g|k g v]; cbn [StOK] in *; [destruct R as [v G]; exists v|]; apply X; assumption.
  - intros i k g v H. exact (X _ _ _ (O i k g v H)).
Qed.

(* a write: the next identity becomes the key's generation *)
Lemma binv_new_gen {s gens1} r0 :
  BInv s -> gext (b_gens s) gens1 -> fresh (b_nid s) gens1 ->
  let gens2 := aset (b_nid s) r0 gens1 in
  fresh (b_nid s + 1) gens2 /\ CacheOK gens2 (b_cache s) /\ TblOK gens2 (aset (gr_key r0) (b_nid s) (b_tbl s)) /\
  RdOK gens2 (b_rd s) /\ OutOK gens2 (b_out s).
Proof.
  intros I X F gens2.
  assert (X2 : gext (b_gens s) gens2).
  { intros g k v H. destruct (X _ _ _ H) as (r & A & B). exists r. split; [|exact B].
    unfold gens2. rewrite aget_aset_other; [exact A|]. intros ->. rewrite F in A by lia. discriminate. }
  destruct (binv_gext I X2) as (C & T & R & O). split; [|repeat split; try assumption].
  - intros g Hg. unfold gens2. rewrite aget_aset_other by lia. apply F. lia.
  - apply (TblOK_aset _ _ _ _ (gr_val r0)); [exact T|]. exists r0. unfold gens2. rewrite aget_aset_same. auto.
Qed.

Lemma binv_hit {s k g v} : BInv s -> cg_get (b_cache s) k (Some g) = Some v ->
  exists r, aget g (b_gens s) = Some r /\ gr_val r = v.
Proof.
  intros I H. destruct (cg_get_in H) as (e & Hi & _ & Ht & <-).
  destruct (bi_cache s I e g Hi Ht) as (k0 & r & A & _ & V). exists r. split; assumption.
Qed.

(* update_ttl may take the bytes from the cache: they are the generation's *)
Lemma ttl_bytes on {s} k {o r} : BInv s -> aget o (b_gens s) = Some r ->
  match (if on && negb (resident s o) then cg_entry_value (b_cache s) k o else None) with
  | Some v' => v' | None => gr_val r end = gr_val r.
Proof.
  intros I G. destruct (on && negb (resident s o)); [|reflexivity]. rewrite cg_entry_value_get.
  destruct (cg_get (b_cache s) k (Some o)) as [v'|] eqn:C; [|reflexivity].
  destruct (binv_hit I C) as (r' & A & <-). congruence.
Qed.

Local Ltac fields := cbn [b_gens b_tbl b_res b_nid b_now b_cache b_rd b_out] in *.

Lemma binv_reader {s} i st : BInv s -> StOK (b_gens s) st ->
  BInv (mkbst (b_gens s) (b_tbl s) (b_res s) (b_nid s) (b_now s) (b_cache s) (aset i st (b_rd s)) (b_out s)).
Proof.
  intros [F C T R O N] G. constructor; fields; try assumption.
  intros i0 st0 H. apply aget_aset_some in H. destruct H as [[_ ->]|[_ H]]; [exact G | exact (R _ _ H)].
Qed.

(* reader i returns: any answer it gives names a generation of its key *)
Lemma binv_answer {s} c i k o :
  BInv s -> CacheOK (b_gens s) c -> NoDup (ckeys c) -> (forall g v, o = Some (g, v) -> is_gen (b_gens s) g k v) ->
  BInv (mkbst (b_gens s) (b_tbl s) (b_res s) (b_nid s) (b_now s) c (adel i (b_rd s)) ((i, k, o) :: b_out s)).
Proof.
  intros [F _ T R O _] C N G. constructor; fields; try assumption.
  - intros i0 st H. apply aget_adel_some in H. exact (R _ _ (proj1 H)).
  - intros i0 k0 g v [[= -> -> ->]|H]; [apply G; reflexivity | exact (O _ _ _ _ H)].
Qed.

Lemma binv_miss {s} i k : BInv s ->
  BInv (mkbst (b_gens s) (b_tbl s) (b_res s) (b_nid s) (b_now s) (b_cache s) (adel i (b_rd s)) ((i, k, None) :: b_out s)).
Proof. intros I. apply binv_answer; [exact I | apply I | apply I | discriminate]. Qed.

Theorem bstep_inv on s e : BInv s -> BInv (bstep on s e).
Proof.
  intros I. pose proof I as [F C T R O N].
  destruct e as [d|k v ts exp|k|k g|k ts exp|g|g|k|i k|i stale|i big]; cbn [bstep].
  - constructor; assumption.
  - (* put *)
    set (gens1 := match aget k (b_tbl s) with Some o => kill (b_gens s) o | None => b_gens s end).
    assert (X : gext (b_gens s) gens1 /\ fresh (b_nid s) gens1)
      by (unfold gens1; destruct (aget k (b_tbl s)); split; auto using gext_kill, gext_refl, fresh_kill).
    destruct (binv_new_gen (mkgrec k v ts exp true false) I (proj1 X) (proj2 X)) as (F2 & C2 & T2 & R2 & O2).
    constructor; assumption.
  - (* delete *)
    destruct (aget k (b_tbl s)) as [o|]; [|exact I].
    destruct (binv_gext I (gext_kill _ o)) as (C' & T' & R' & O').
    constructor; fields; auto using fresh_kill, TblOK_adel.
  - (* uncache *)
    destruct on; [|exact I]. constructor; fields; auto using CacheOK_remove, cg_remove_nodup.
  - (* ttl *)
    destruct (aget k (b_tbl s)) as [o|]; [|exact I].
    destruct (aget o (b_gens s)) as [r|] eqn:G; [|exact I].
    destruct (expired r (b_now s)); [exact I|].
    set (cached := if on && negb (resident s o) then cg_entry_value (b_cache s) k o else None).
    destruct (binv_new_gen (mkgrec k (match cached with Some v' => v' | None => gr_val r end) ts exp true false)
                I (gext_kill _ o) (fresh_kill _ _ o F)) as (F2 & C2 & T2 & R2 & O2).
    constructor; fields; try assumption; destruct cached; auto using CacheOK_remove, cg_remove_nodup.
  - constructor; assumption.
  - (* drop *)
    destruct (aget g (b_gens s)) as [r|]; [|exact I]. destruct (gr_live r || held s g); [exact I|].
    set (f := fun r => mkgrec _ _ _ _ _ true).
    assert (X : gext (b_gens s) (upd_gen (b_gens s) g f)) by (apply gext_upd; intros r0; split; reflexivity).
    destruct (binv_gext I X) as (C' & T' & R' & O').
    constructor; fields; auto using fresh_upd.
  - (* evict *)
    constructor; fields; auto using CacheOK_remove, cg_remove_nodup.
  - (* start *)
    destruct (aget k (b_tbl s)) as [g|] eqn:T0; [exact (binv_reader i (RHold k g) I (T k g T0)) | exact (binv_miss i k I)].
  - (* resolve: the generation the reader holds exists *)
    destruct (aget i (b_rd s)) as [[k g|k g v]|] eqn:Ri; try exact I.
    destruct (R i _ Ri) as (v0 & r & G & K & _). rewrite G.
    assert (Ld : StOK (b_gens s) (RLoaded k g (gr_val r))) by (exists r; auto).
    destruct (expired r (b_now s)); [exact (binv_miss i k I)|].
    destruct (resident s g); [exact (binv_reader i _ I Ld)|].
    destruct (if on then cg_get (b_cache s) k (Some g) else None) as [v|] eqn:Cg.
    + destruct on; [|discriminate]. destruct (binv_hit I Cg) as (r' & A & <-).
      replace r' with r by congruence. exact (binv_reader i _ I Ld).
    + destruct stale; [|exact (binv_reader i _ I Ld)].
      destruct (aget k (b_tbl s)) as [g'|] eqn:T0; [exact (binv_reader i (RHold k g') I (T k g' T0)) | exact (binv_miss i k I)].
  - (* fill / return *)
    destruct (aget i (b_rd s)) as [[k g|k g v]|] eqn:Ri; try exact I.
    pose proof (R i _ Ri) as G. cbn [StOK] in G.
    apply binv_answer; [exact I | | | intros g0 v0 [= <- <-]; exact G].
    + destruct (on && negb big); [apply CacheOK_insert|]; assumption.
    + destruct (on && negb big); [apply cg_insert_nodup|]; exact N.
Qed.

Theorem brun_inv on es s : BInv s -> BInv (brun on s es).
Proof. apply fold_left_inv. intros s0 e. apply bstep_inv. Qed.

(* the same schedule for the cacheless store: where the cached store did not touch the device,
   the staleness answer of the device is immaterial, so the cacheless read (which does touch it)
   is given a good read *)
Definition adjust1 (s : bst) (e : bev) : bev :=
  match e with
  | BResolve i stale => BResolve i (stale && will_read_device s i)
  | _ => e
  end.

Fixpoint adjust (s : bst) (es : list bev) : list bev :=
  match es with
  | [] => []
  | e :: t => adjust1 s e :: adjust (bstep true s e) t
  end.

Definition erase (e : bev) : bev := match e with BResolve i _ => BResolve i false | _ => e end.

Lemma adjust_same_calls es : forall s, map erase (adjust s es) = map erase es.
Proof.
  induction es as [|e t IH]; intros s; cbn [adjust map]; [reflexivity|]. rewrite IH. f_equal. destruct e; reflexivity.
Qed.

Definition all_good_reads (es : list bev) : Prop :=
  forall i stale, In (BResolve i stale) es -> stale = false.

Lemma adjust_id es : all_good_reads es -> forall s, adjust s es = es.
Proof.
  induction es as [|e t IH]; intros H s; cbn [adjust]; [reflexivity|].
  rewrite IH by (intros i st Hi; apply (H i st); right; exact Hi). f_equal.
  destruct e; try reflexivity. cbn. rewrite (H i stale) by (left; reflexivity). reflexivity.
Qed.

Definition res_in (res : list (N * bool)) (g : N) : bool := match aget g res with Some b => b | None => false end.

Lemma resident_res_in s g : resident s g = res_in (b_res s) g.
Proof. reflexivity. Qed.

(* the two worlds agree on everything but the cache and on which values are resident: a value
   resident without the cache is resident with it *)
Inductive BRel : bst -> bst -> Prop :=
| brel_mk gens tbl nid now rd out res1 res0 c1 c0 :
    (forall g, res_in res0 g = true -> res_in res1 g = true) ->
    BRel (mkbst gens tbl res1 nid now c1 rd out) (mkbst gens tbl res0 nid now c0 rd out).

Local Hint Constructors BRel : core.

Lemma brel_agree s1 s0 : BRel s1 s0 -> b_out s0 = b_out s1 /\ b_tbl s0 = b_tbl s1 /\ b_gens s0 = b_gens s1.
Proof. intros []. repeat split. Qed.

Lemma res_aset res g b x : res_in (aset g b res) x = if x =? g then b else res_in res x.
Proof. unfold res_in. rewrite aget_aset. destruct (x =? g); reflexivity. Qed.

Lemma held_eq s1 s0 g : b_rd s1 = b_rd s0 -> held s1 g = held s0 g.
Proof. intros H. unfold held. rewrite H. reflexivity. Qed.

Theorem bstep_rel s1 s0 e : BInv s1 -> BRel s1 s0 -> BRel (bstep true s1 e) (bstep false s0 (adjust1 s1 e)).
Proof.
  intros I Rel. revert I. destruct Rel as [gens tbl nid now rd out res1 res0 c1 c0 Hr]. intros I.
  destruct e as [d|k v ts exp|k|k g|k ts exp|g|g|k|i k|i stale|i big]; cbn [bstep adjust1]; fields.
  - auto.
  - constructor. intros g. rewrite !res_aset. destruct (g =? nid); [reflexivity|apply Hr].
  - destruct (aget k tbl); auto.
  - auto.
  - destruct (aget k tbl) as [o|]; [|auto].
    destruct (aget o gens) as [r|] eqn:G; [|auto].
    destruct (expired r now); [auto|].
    pose proof (ttl_bytes true k I G) as Hv. fields. rewrite Hv. cbn [andb]. constructor.
    intros g. rewrite !res_aset. destruct (g =? nid); [|apply Hr].
    rewrite !resident_res_in; fields.
    rewrite orb_false_r. intros H. rewrite (Hr _ H). reflexivity.
  - constructor. intros x. rewrite !res_aset. destruct (x =? g); [discriminate|apply Hr].
  - destruct (aget g gens) as [r|]; [|auto].
    unfold held; fields. destruct (gr_live r || _); auto.
  - auto.
  - destruct (aget k tbl); auto.
  - (* resolve *)
    unfold will_read_device; fields.
    destruct (aget i rd) as [[k g|k g v]|]; auto.
    destruct (aget g gens) as [r|] eqn:G; [|auto].
    destruct (expired r now); [auto|].
    rewrite !resident_res_in; fields. cbn [negb andb].
    destruct (res_in res0 g) eqn:R0; [rewrite (Hr _ R0)|destruct (res_in res1 g)]; cbn [negb andb].
    + auto.
    + (* resident with the cache only: the cacheless store reads it from the device *)
      rewrite andb_false_r. auto.
    + destruct (cg_get c1 k (Some g)) as [v|] eqn:Cg.
      * (* a hit: the cacheless store reads the same bytes from the device *)
        rewrite andb_false_r. destruct (binv_hit I Cg) as (r' & A & <-). fields.
        replace r' with r by (fields; congruence). auto.
      * rewrite andb_true_r. destruct stale; [destruct (aget k tbl)|]; auto.
  - destruct (aget i rd) as [[k g|k g v]|]; auto.
Qed.

Theorem brun_rel es : forall s1 s0, BInv s1 -> BRel s1 s0 -> BRel (brun true s1 es) (brun false s0 (adjust s1 es)).
Proof.
  induction es as [|e t IH]; intros s1 s0 I R; [exact R|].
  unfold brun. cbn [adjust fold_left]. apply IH; [apply bstep_inv; exact I|apply bstep_rel; assumption].
Qed.

Lemma brel_init : BRel binit binit.
Proof. constructor. auto. Qed.

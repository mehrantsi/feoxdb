(* Every schedule of the per-key protocol of Model/Sched.v is linearizable with the two permitted
   conservative refusals: the commits, in the order in which they happen, form a legal
   sequential last-writer-wins history with exactly the responses the threads received. *)
From Coq Require Import List NArith ZArith Bool Lia.
From Feox Require Import Model.Sched Proofs.ListFacts.
From Feox Require Import Proofs.AssocProofs Proofs.SetNthFacts.
Import ListNotations.
Local Open Scope N_scope.

Lemma tbl_observe s k ts ex : tbl (observe s k ts ex) = tbl s.
Proof. unfold observe. destruct ex; reflexivity. Qed.
Lemma nid_observe s k ts ex : nid (observe s k ts ex) = nid s.
Proof. unfold observe. destruct ex; reflexivity. Qed.
Lemma tbl_draw s k : tbl (snd (draw s k)) = tbl s.
Proof. reflexivity. Qed.
Lemma nid_draw s k : nid (snd (draw s k)) = nid s.
Proof. reflexivity. Qed.

Lemma draw_tbl s k t s' : draw s k = (t, s') -> tbl s' = tbl s /\ nid s' = nid s.
Proof. intros H. rewrite <- (tbl_draw s k), <- (nid_draw s k), H. split; reflexivity. Qed.

Lemma resolve_tbl s k tso ts ex s' : resolve s k tso = (ts, ex, s') -> tbl s' = tbl s /\ nid s' = nid s.
Proof.
  unfold resolve. destruct tso as [t|].
  - intros [= _ _ <-]. split; reflexivity.
  - destruct (draw s k) as [t s1] eqn:Hd. intros [= _ _ <-]. exact (draw_tbl _ _ _ _ Hd).
Qed.

Lemma tbl_publish_replace s k e v ts ex :
  tbl (publish_replace s k e v ts ex) = aset k (mkgen (nid s) v ts) (tbl s).
Proof. unfold publish_replace. rewrite tbl_observe. reflexivity. Qed.
Lemma nid_publish_replace s k e v ts ex : nid (publish_replace s k e v ts ex) = nid s + 1.
Proof. unfold publish_replace. rewrite nid_observe. reflexivity. Qed.
Lemma tbl_publish_new s k v ts ex :
  tbl (publish_new s k v ts ex) = aset k (mkgen (nid s) v ts) (tbl s).
Proof. unfold publish_new. rewrite tbl_observe. reflexivity. Qed.
Lemma nid_publish_new s k v ts ex : nid (publish_new s k v ts ex) = nid s + 1.
Proof. unfold publish_new. rewrite nid_observe. reflexivity. Qed.
Lemma tbl_retire_remove s k e ts ex : tbl (retire_remove s k e ts ex) = adel k (tbl s).
Proof. unfold retire_remove. rewrite tbl_observe. reflexivity. Qed.
Lemma nid_retire_remove s k e ts ex : nid (retire_remove s k e ts ex) = nid s.
Proof. unfold retire_remove. rewrite nid_observe. reflexivity. Qed.

(* generation ids are below the next id and distinct entries carry distinct ids *)
Definition table_ok (s : shared) : Prop :=
  (forall k e, aget k (tbl s) = Some e -> g_id e < nid s) /\
  (forall k1 k2 e1 e2, aget k1 (tbl s) = Some e1 -> aget k2 (tbl s) = Some e2 -> g_id e1 = g_id e2 -> e1 = e2).

(* a generation a thread holds a pointer to: Arc::ptr_eq with a table entry means "is that entry" *)
Definition held_ok (s : shared) (g : gen) : Prop :=
  g_id g < nid s /\ forall k e, aget k (tbl s) = Some e -> g_id e = g_id g -> e = g.

(* every entry of s' was already the key's entry in s or carries an id issued since *)
Definition ext (s s' : shared) : Prop :=
  nid s <= nid s' /\ forall k e, aget k (tbl s') = Some e -> aget k (tbl s) = Some e \/ nid s <= g_id e.

Lemma ext_refl s : ext s s.
Proof. split; [lia | intros; left; assumption]. Qed.

Lemma held_ext s s' g : held_ok s g -> ext s s' -> held_ok s' g.
Proof.
  intros [Hlt Hu] [Hn He]. split; [lia|].
  intros k e Hget Hid. destruct (He k e Hget) as [Hold|Hfresh]; [eauto | lia].
Qed.

Lemma held_of_table s k g : table_ok s -> aget k (tbl s) = Some g -> held_ok s g.
Proof.
  intros [Hlt Hu] Hget. split; eauto.
Qed.

Lemma same_eq s e g : held_ok s g -> forall k, aget k (tbl s) = Some e -> same e g = true -> e = g.
Proof. intros [_ Hu] k Hget Hs. apply N.eqb_eq in Hs. eauto. Qed.

(* what the control state remembers about the generation it read *)
Definition pc_ok (s : shared) (o : op) (p : pc) : Prop :=
  match o, p with
  | OCas _ e _ _, PCGuard _ _ g _ => held_ok s g /\ val_eqb (g_val g) e = true
  | OIncr _ d _, PNGuard _ g nv _ _ => held_ok s g /\ exists z, g_val g = VC z /\ nv = sat_add_i64 z d
  | OPatch _ pj _, PPGuard _ _ _ r nv => held_ok s r /\ exists l, g_val r = VJ l /\ nv = VJ (l ++ [pj])
  | _, _ => True
  end.

Lemma pc_ok_ext s s' o p : pc_ok s o p -> ext s s' -> pc_ok s' o p.
Proof.
  intros H He. destruct o, p; cbn in *; try exact I;
    destruct H as [Hh Hr]; (split; [exact (held_ext _ _ _ Hh He) | exact Hr]).
Qed.

Lemma pc_ok_start s o : pc_ok s o PStart.
Proof. destruct o; exact I. Qed.

Lemma abs_some s k g : aget k (tbl s) = Some g -> abs s k = Some (g_val g, g_ts g).
Proof. intros H. unfold abs. rewrite H. reflexivity. Qed.
Lemma abs_none s k : aget k (tbl s) = None -> abs s k = None.
Proof. intros H. unfold abs. rewrite H. reflexivity. Qed.

Section Frame.
  Variables (s s' : shared) (k : N).
  Hypothesis Hok : table_ok s.

  Let frame : Prop := table_ok s' /\ ext s s' /\ forall k', k' <> k -> abs s' k' = abs s k'.

  Lemma frame_same : tbl s' = tbl s -> nid s' = nid s -> frame /\ abs s' k = abs s k.
  Proof.
    intros Ht Hn. unfold frame, table_ok, ext, abs. rewrite Ht, Hn.
    repeat split; try apply Hok; auto using N.le_refl.
  Qed.

  Lemma frame_set v ts :
    tbl s' = aset k (mkgen (nid s) v ts) (tbl s) -> nid s' = nid s + 1 -> frame /\ abs s' k = Some (v, ts).
  Proof.
    intros Ht Hn. destruct Hok as [H1 H2]. unfold frame, table_ok, ext, abs. rewrite Ht, Hn.
    assert (Hnew : forall k' e, aget k' (aset k (mkgen (nid s) v ts) (tbl s)) = Some e ->
                     aget k' (tbl s) = Some e \/ g_id e = nid s).
    { intros k' e H. apply aget_aset_some in H. destruct H as [[_ ->]|[_ H]]; auto. }
    repeat split.
    - intros k' e H. destruct (Hnew _ _ H) as [H'| ->]; [specialize (H1 _ _ H')|]; lia.
    - intros k1 k2 e1 e2 A B Hid.
      apply aget_aset_some in A. apply aget_aset_some in B.
      destruct A as [[-> ->]|[_ A]], B as [[-> ->]|[_ B]]; trivial.
      + specialize (H1 _ _ B). cbn in Hid. lia.
      + specialize (H1 _ _ A). cbn in Hid. lia.
      + exact (H2 _ _ _ _ A B Hid).
    - lia.
    - intros k' e H. destruct (Hnew _ _ H) as [H'| ->]; [left; exact H' | right; lia].
    - intros k' Hne. rewrite aget_aset_other by exact Hne. reflexivity.
    - rewrite aget_aset_same. reflexivity.
  Qed.

  Lemma frame_del : tbl s' = adel k (tbl s) -> nid s' = nid s -> frame /\ abs s' k = None.
  Proof.
    intros Ht Hn. destruct Hok as [H1 H2]. unfold frame, table_ok, ext, abs. rewrite Ht, Hn.
    repeat split.
    - intros k' e H. apply aget_adel_some in H. exact (H1 _ _ (proj1 H)).
    - intros k1 k2 e1 e2 A B. apply aget_adel_some in A. apply aget_adel_some in B.
      exact (H2 _ _ _ _ (proj1 A) (proj1 B)).
    - lia.
    - intros k' e H. apply aget_adel_some in H. left. exact (proj1 H).
    - intros k' Hne. rewrite aget_adel_other by exact Hne. reflexivity.
    - rewrite aget_adel_same. reflexivity.
  Qed.
End Frame.

Definition commit_ok (st1 : kstate) (c : commit) (st2 : kstate) : Prop :=
  if c_dev c then st2 = st1 /\ (c_resp c = ROlder \/ c_resp c = RBool false)
  else spec_step st1 (c_op c) (c_ts c) (c_ex c) = (st2, c_resp c).

(* what one step of a call does: other keys keep their contents; a step without a commit leaves
   the call's own key alone as well and parks at a control state whose memory is accurate; a
   step with a commit answers, and the key goes from old to new contents as the commit says *)
Definition step_post (s : shared) (o : op) (s' : shared) (r : pc + resp) (c : option commit) : Prop :=
  table_ok s' /\ ext s s' /\
  (forall k', k' <> key_of o -> abs s' k' = abs s k') /\
  match c with
  | None => abs s' (key_of o) = abs s (key_of o) /\ exists p', r = inl p' /\ pc_ok s' o p'
  | Some cm => r = inr (c_resp cm) /\ c_op cm = o /\ commit_ok (abs s (key_of o)) cm (abs s' (key_of o))
  end.

Lemma post_goto s o s' p' :
  table_ok s -> tbl s' = tbl s -> nid s' = nid s -> pc_ok s o p' -> step_post s o s' (inl p') None.
Proof.
  intros Hok Ht Hn Hp. destruct (frame_same s s' (key_of o) Hok Ht Hn) as [(A & B & C) D].
  refine (conj A (conj B (conj C (conj D _)))). eauto using pc_ok_ext.
Qed.

Lemma post_stay s o p' : table_ok s -> pc_ok s o p' -> step_post s o s (inl p') None.
Proof. intros Hok. apply post_goto; trivial. Qed.

Lemma post_resolve s o tso ts ex s' p' :
  table_ok s -> resolve s (key_of o) tso = (ts, ex, s') -> pc_ok s o p' -> step_post s o s' (inl p') None.
Proof. intros Hok Hr. destruct (resolve_tbl _ _ _ _ _ _ Hr). apply post_goto; trivial. Qed.

Lemma post_quiet s o ts ex r dev :
  table_ok s -> commit_ok (abs s (key_of o)) (mkc o ts ex r dev) (abs s (key_of o)) ->
  step_post s o s (inr r) (Some (mkc o ts ex r dev)).
Proof.
  intros Hok Hc. destruct (frame_same s s (key_of o) Hok eq_refl eq_refl) as [(A & B & C) _].
  refine (conj A (conj B (conj C _))). auto.
Qed.

Lemma post_answer s o ts ex r :
  table_ok s -> spec_step (abs s (key_of o)) o ts ex = (abs s (key_of o), r) ->
  step_post s o s (inr r) (Some (mkc o ts ex r false)).
Proof. intros Hok Hs. apply post_quiet; assumption. Qed.

Lemma post_refuse s o ts ex r :
  table_ok s -> r = ROlder \/ r = RBool false -> step_post s o s (inr r) (Some (mkc o ts ex r true)).
Proof. intros Hok Hr. apply post_quiet; [exact Hok | split; [reflexivity | exact Hr]]. Qed.

(* a write found older after its generation was superseded is flagged exactly when the current
   entry would not have refused it *)
Lemma post_older s o ts ex t0 :
  table_ok s ->
  (ts <=? t0 = true -> spec_step (abs s (key_of o)) o ts ex = (abs s (key_of o), ROlder)) ->
  step_post s o s (inr ROlder) (Some (mkc o ts ex ROlder (negb (ts <=? t0)))).
Proof. intros Hok Hs. destruct (ts <=? t0); [apply post_answer | apply post_refuse]; auto. Qed.

Lemma post_set s o s' v ts ex r :
  table_ok s -> tbl s' = aset (key_of o) (mkgen (nid s) v ts) (tbl s) -> nid s' = nid s + 1 ->
  spec_step (abs s (key_of o)) o ts ex = (Some (v, ts), r) ->
  step_post s o s' (inr r) (Some (mkc o ts ex r false)).
Proof.
  intros Hok Ht Hn Hc. destruct (frame_set s s' (key_of o) Hok v ts Ht Hn) as [(A & B & C) D].
  refine (conj A (conj B (conj C _))). unfold commit_ok. cbn. rewrite D. auto.
Qed.

Lemma post_replace s o k e v ts ex r :
  key_of o = k -> table_ok s -> spec_step (abs s k) o ts ex = (Some (v, ts), r) ->
  step_post s o (publish_replace s k e v ts ex) (inr r) (Some (mkc o ts ex r false)).
Proof. intros <- Hok. apply post_set; [exact Hok | apply tbl_publish_replace | apply nid_publish_replace]. Qed.

Lemma post_new s o k s1 v ts ex r :
  key_of o = k -> table_ok s -> tbl s1 = tbl s -> nid s1 = nid s ->
  spec_step (abs s k) o ts ex = (Some (v, ts), r) ->
  step_post s o (publish_new s1 k v ts ex) (inr r) (Some (mkc o ts ex r false)).
Proof.
  intros <- Hok Ht Hn. apply post_set; [exact Hok | |].
  - rewrite tbl_publish_new, Ht, Hn. reflexivity.
  - rewrite nid_publish_new, Hn. reflexivity.
Qed.

Lemma post_del s o k e ts ex r :
  key_of o = k -> table_ok s -> spec_step (abs s k) o ts ex = (None, r) ->
  step_post s o (retire_remove s k e ts ex) (inr r) (Some (mkc o ts ex r false)).
Proof.
  intros <- Hok Hc.
  destruct (frame_del s _ (key_of o) Hok (tbl_retire_remove _ _ e ts ex) (nid_retire_remove _ _ e ts ex))
    as [(A & B & C) D].
  refine (conj A (conj B (conj C _))). unfold commit_ok. cbn. rewrite D. auto.
Qed.

(* A thread parked at a control state that does not belong to its current call begins the call;
   in an execution that state is always PStart. *)
Definition own_pc (o : op) (p : pc) : bool :=
  match o, p with
  | OUpsert _ _ _, (PUTop _ _ | PUGuard _ _ _ | PUIns _ _)
  | ODelete _ _, PDGuard _ _
  | OCas _ _ _ _, PCGuard _ _ _ _
  | OIncr _ _ _, (PNTop _ | PNCreate _ _ _ | PNGuard _ _ _ _ _)
  | OPatch _ _ _, (PPTop _ _ _ | PPGuard _ _ _ _ _) => true
  | _, _ => false
  end.

Lemma opstep_start s o p : own_pc o p = false -> opstep s o p = opstep s o PStart.
Proof. destruct o, p; intros H; try discriminate H; reflexivity. Qed.

Lemma triple_eq {A B C} (a a' : A) (b b' : B) (c c' : C) :
  (a, b, c) = (a', b', c') -> a = a' /\ b = b' /\ c = c'.
Proof. intros [= -> -> ->]. auto. Qed.

(* the step's outcome, read off without normalising the new state as `injection` would *)
Ltac outcome H := apply triple_eq in H; destruct H as (<- & <- & <-).

(* [Hg] says what the key's entry is; the spec's step on its contents is then a computation *)
Local Ltac spec Hg :=
  cbn [key_of]; first [rewrite (abs_some _ _ _ Hg) | rewrite (abs_none _ _ Hg)]; cbn [spec_step andb].

Lemma start_sim s o s' r c :
  table_ok s -> opstep s o PStart = (s', r, c) -> step_post s o s' r c.
Proof.
  intros Hok Hstep.
  destruct o as [k|k v tso|k tso|k e n tso|k d tso|k v|k pj tso];
    cbn [opstep key_of] in *; unfold done, goto in Hstep.
  - destruct (aget k (tbl s)) eqn:Hg; outcome Hstep; apply post_answer; trivial; spec Hg; reflexivity.
  - destruct (resolve s k tso) as [[ts ex] s1] eqn:Hr. outcome Hstep. eapply post_resolve; eauto; exact I.
  - destruct (resolve s k tso) as [[ts ex] s1] eqn:Hr. outcome Hstep. eapply post_resolve; eauto; exact I.
  - destruct (aget k (tbl s)) as [g|] eqn:Hg; [destruct (val_eqb (g_val g) e) eqn:Hv|].
    + destruct (resolve s k tso) as [[ts ex] s1] eqn:Hr. outcome Hstep.
      eapply post_resolve; eauto. split; eauto using held_of_table.
    + outcome Hstep. apply post_answer; trivial. spec Hg. now rewrite Hv.
    + outcome Hstep. apply post_answer; trivial. spec Hg. reflexivity.
  - outcome Hstep. now apply post_stay.
  - destruct (aget k (tbl s)) eqn:Hg.
    + outcome Hstep. apply post_answer; trivial. spec Hg. reflexivity.
    + destruct (draw s k) as [t s1] eqn:Hd. destruct (draw_tbl _ _ _ _ Hd). outcome Hstep.
      apply post_new; trivial. spec Hg. reflexivity.
  - destruct (resolve s k tso) as [[ts ex] s1] eqn:Hr. outcome Hstep. eapply post_resolve; eauto; exact I.
Qed.

Theorem opstep_sim s o p s' r c :
  table_ok s -> pc_ok s o p -> opstep s o p = (s', r, c) -> step_post s o s' r c.
Proof.
  intros Hok Hpc Hstep.
  destruct (own_pc o p) eqn:Hown.
  2:{ rewrite (opstep_start _ _ _ Hown) in Hstep. exact (start_sim _ _ _ _ _ Hok Hstep). }
  destruct o as [k|k v tso|k tso|k e n tso|k d tso|k v|k pj tso], p; try discriminate Hown; clear Hown;
    cbn [opstep key_of] in *; unfold done, goto in Hstep;
    destruct (aget k (tbl s)) as [e0|] eqn:Hg.
  - (* PUTop *)
    destruct (ts <=? g_ts e0) eqn:Hle; outcome Hstep.
    + apply post_answer; trivial. spec Hg. now rewrite Hle.
    + now apply post_stay.
  - outcome Hstep. now apply post_stay.
  - (* PUGuard: update_record_with_ttl *)
    assert (Hold : (ts <=? g_ts e0) = true ->
              spec_step (abs s k) (OUpsert k v tso) ts ex = (abs s k, ROlder)).
    { intros Hle. spec Hg. now rewrite Hle. }
    destruct (negb (same e0 g) && (ts <=? rt s (g_id g))); [|destruct (ts <=? g_ts e0) eqn:Hle]; outcome Hstep.
    + apply post_older; trivial.
    + apply post_answer; auto.
    + apply post_replace; trivial. spec Hg. now rewrite Hle.
  - destruct (ts <=? rt s (g_id g)); outcome Hstep; [apply post_refuse; auto | now apply post_stay].
  - (* PUIns *)
    outcome Hstep. now apply post_stay.
  - outcome Hstep. apply post_new; trivial. spec Hg. reflexivity.
  - (* PDGuard *)
    destruct (ts <=? g_ts e0) eqn:Hle; outcome Hstep.
    + apply post_answer; trivial. spec Hg. now rewrite Hle.
    + apply post_del; trivial. spec Hg. now rewrite Hle.
  - outcome Hstep. apply post_answer; trivial. spec Hg. reflexivity.
  - (* PCGuard: replace_record_if_current *)
    destruct Hpc as [Hheld Hv]. destruct (same e0 g) eqn:Hs; cbn [negb] in Hstep.
    + apply (same_eq _ _ _ Hheld _ Hg) in Hs. subst e0.
      destruct (ts <=? g_ts g) eqn:Hle; outcome Hstep.
      * apply post_answer; trivial. spec Hg. now rewrite Hv, Hle.
      * apply post_replace; trivial. spec Hg. now rewrite Hv, Hle.
    + outcome Hstep. destruct (val_eqb (g_val e0) e) eqn:Hv2.
      * apply post_refuse; auto.
      * apply post_answer; trivial. spec Hg. now rewrite Hv2.
  - outcome Hstep. apply post_answer; trivial. spec Hg. reflexivity.
  - (* PNTop, the key is present *)
    destruct tso as [t|].
    + destruct (t <=? g_ts e0) eqn:Hle; [|destruct (g_val e0) eqn:Hv]; outcome Hstep.
      * apply post_answer; trivial. spec Hg. now rewrite Hle.
      * apply post_answer; trivial. spec Hg. now rewrite Hle, Hv.
      * apply post_answer; trivial. spec Hg. now rewrite Hle, Hv.
      * apply post_stay; trivial. cbn. eauto using held_of_table.
    + destruct (g_val e0) eqn:Hv.
      * outcome Hstep. apply post_answer; trivial. spec Hg. now rewrite Hv.
      * outcome Hstep. apply post_answer; trivial. spec Hg. now rewrite Hv.
      * destruct (draw s k) as [t s1] eqn:Hd. destruct (draw_tbl _ _ _ _ Hd). outcome Hstep.
        apply post_goto; trivial. cbn. eauto using held_of_table.
  - (* PNTop, the key is absent *)
    set (ra := match obs with Some r0 => rt s (g_id r0) | None => 0 end) in Hstep.
    destruct tso as [t|].
    + destruct (t <=? ra); outcome Hstep; [apply post_refuse; auto | now apply post_stay].
    + destruct (draw s k) as [t s1] eqn:Hd. destruct (draw_tbl _ _ _ _ Hd).
      (* an automatic timestamp is drawn above the retirement timestamp *)
      destruct (N.max t (ra + 1) <=? ra) eqn:Hle; [apply N.leb_le in Hle; lia|].
      outcome Hstep. apply post_goto; trivial.
  - (* PNCreate *)
    outcome Hstep. now apply post_stay.
  - outcome Hstep. apply post_new; trivial. spec Hg. reflexivity.
  - (* PNGuard *)
    destruct Hpc as [Hheld (z & Hv & ->)]. destruct (same e0 g) eqn:Hs; cbn [negb] in Hstep.
    + apply (same_eq _ _ _ Hheld _ Hg) in Hs. subst e0.
      destruct (ts <=? g_ts g) eqn:Hle; outcome Hstep.
      * apply post_answer; trivial. spec Hg. rewrite Hle, Hv, andb_true_r. destruct ex; reflexivity.
      * apply post_replace; trivial. spec Hg. now rewrite Hle, Hv, andb_false_r.
    + destruct (ex && (ts <=? rt s (g_id root))) eqn:Hd; outcome Hstep; [|now apply post_stay].
      apply andb_true_iff in Hd. destruct Hd as [-> _].
      apply post_older; trivial. intros Hle. spec Hg. now rewrite Hle.
  - destruct (ex && (ts <=? rt s (g_id root))); outcome Hstep; [apply post_refuse; auto | now apply post_stay].
  - (* PPTop *)
    set (ob := match obs with Some x => x | None => e0 end) in Hstep.
    assert (Hold : (ts <=? g_ts e0) = true ->
              spec_step (abs s k) (OPatch k pj tso) ts ex = (abs s k, ROlder)).
    { intros Hle. spec Hg. now rewrite Hle. }
    destruct (negb (same ob e0) && (ts <=? rt s (g_id ob))); [|destruct (ts <=? g_ts e0) eqn:Hle; [|destruct (g_val e0) eqn:Hv]];
      outcome Hstep.
    + apply post_older; trivial.
    + apply post_answer; auto.
    + apply post_answer; trivial. spec Hg. now rewrite Hle, Hv.
    + apply post_stay; trivial. cbn. eauto using held_of_table.
    + apply post_answer; trivial. spec Hg. now rewrite Hle, Hv.
  - outcome Hstep. apply post_answer; trivial. spec Hg. reflexivity.
  - (* PPGuard *)
    destruct Hpc as [Hheld (l & Hv & ->)]. destruct (same e0 r0) eqn:Hs; cbn [negb] in Hstep.
    + apply (same_eq _ _ _ Hheld _ Hg) in Hs. subst e0.
      destruct (ts <=? g_ts r0) eqn:Hle; outcome Hstep.
      * apply post_answer; trivial. spec Hg. now rewrite Hle.
      * apply post_replace; trivial. spec Hg. now rewrite Hle, Hv.
    + outcome Hstep. now apply post_stay.
  - outcome Hstep. now apply post_stay.
Qed.

Definition astate := N -> kstate.

(* a legal sequential history with the permitted refusals: each commit, applied to the state
   left by the previous ones, is what the sequential spec does (or a flagged refusal that
   changes nothing) *)
Inductive lin_rel : astate -> list commit -> astate -> Prop :=
| lin_nil st st' : (forall k, st' k = st k) -> lin_rel st [] st'
| lin_snoc st log st1 c st2 :
    lin_rel st log st1 ->
    (forall k', k' <> key_of (c_op c) -> st2 k' = st1 k') ->
    commit_ok (st1 (key_of (c_op c))) c (st2 (key_of (c_op c))) ->
    lin_rel st (log ++ [c]) st2.

Lemma lin_rel_ext st log st1 st2 : lin_rel st log st1 -> (forall k, st2 k = st1 k) -> lin_rel st log st2.
Proof.
  intros H Heq. inversion H as [sa sb Hab | sa lg sb c sc Hrel Hoth Hc]; subst.
  - apply lin_nil. intros k. rewrite Heq. apply Hab.
  - eapply lin_snoc; [exact Hrel | |]; intros; rewrite Heq; auto.
Qed.

Inductive tstepped (w : world) (i : nat) : world -> Prop :=
| ts_idle : tstepped w i w
| ts_step th o rest s' r c :
    nth_error (w_th w) i = Some th -> t_ops th = o :: rest ->
    opstep (w_sh w) o (t_pc th) = (s', r, c) ->
    tstepped w i
      (mkw s'
           (set_nth i match r with
                      | inl p => mkth (o :: rest) p (t_out th)
                      | inr rs => mkth rest PStart (rs :: t_out th)
                      end (w_th w))
           match c with Some c => w_log w ++ [(i, c)] | None => w_log w end).

Lemma tstep_spec w i : tstepped w i (tstep w i).
Proof.
  unfold tstep. destruct (nth_error (w_th w) i) as [th|] eqn:Hth; [|constructor].
  destruct (t_ops th) as [|o rest] eqn:Hops; [constructor|].
  destruct (opstep (w_sh w) o (t_pc th)) as [[s' r] c] eqn:Hstep.
  exact (ts_step _ _ _ _ _ _ _ _ Hth Hops Hstep).
Qed.

Lemma run_inv (P : world -> Prop) :
  (forall w i, P w -> P (tstep w i)) -> forall sched w, P w -> P (run w sched).
Proof. intros H sched w. exact (fold_left_inv tstep P H sched w). Qed.

Lemma finish_is_run fuel : forall w, exists sched, finish fuel w = run w sched.
Proof.
  induction fuel as [|f IH]; intros w; cbn [finish]; [exists []; reflexivity|].
  destruct (first_unfinished (w_th w) 0) as [i|]; [|exists []; reflexivity].
  destruct (IH (tstep w i)) as [sched E]. exists (i :: sched). exact E.
Qed.

Lemma exec_inv (P : world -> Prop) :
  (forall w i, P w -> P (tstep w i)) ->
  forall sched fuel w, P w -> P (finish fuel (run w sched)).
Proof.
  intros H sched fuel w Hw. destruct (finish_is_run fuel (run w sched)) as [rest ->].
  apply run_inv, run_inv; assumption.
Qed.

Definition commits_of (i : nat) (log : list (nat * commit)) : list commit :=
  map snd (filter (fun ic => Nat.eqb (fst ic) i) log).

Lemma commits_of_snoc_same i log c : commits_of i (log ++ [(i, c)]) = commits_of i log ++ [c].
Proof. unfold commits_of. rewrite filter_app, map_app. cbn. rewrite Nat.eqb_refl. reflexivity. Qed.

Lemma commits_of_snoc_other i j log c : i <> j -> commits_of j (log ++ [(i, c)]) = commits_of j log.
Proof.
  intros Hne. unfold commits_of. rewrite filter_app, map_app. cbn.
  apply Nat.eqb_neq in Hne. rewrite Hne. apply app_nil_r.
Qed.

Definition threads_ok (R : shared -> op -> pc -> Prop) (w : world) : Prop :=
  forall i th, nth_error (w_th w) i = Some th ->
    match t_ops th with o :: _ => R (w_sh w) o (t_pc th) | [] => True end.

Lemma init_thread shards progs i th :
  nth_error (w_th (init_world shards progs)) i = Some th ->
  exists p, nth_error progs i = Some p /\ th = mkth p PStart [].
Proof.
  cbn. rewrite nth_error_map. destruct (nth_error progs i) as [p|]; [|discriminate].
  intros [= <-]. eauto.
Qed.

Section Threads.
  Variable R : shared -> op -> pc -> Prop.
  Hypothesis Rstart : forall s o, R s o PStart.

  Lemma threads_init shards progs : threads_ok R (init_world shards progs).
  Proof.
    intros i th H. destruct (init_thread _ _ _ _ H) as (p & _ & ->). cbn.
    destruct p; [exact I | apply Rstart].
  Qed.

  Lemma threads_step w i th o rest s' r log :
    threads_ok R w -> nth_error (w_th w) i = Some th ->
    (forall o2 p2, R (w_sh w) o2 p2 -> R s' o2 p2) ->
    (forall p', r = inl p' -> R s' o p') ->
    threads_ok R (mkw s' (set_nth i match r with
                                    | inl p => mkth (o :: rest) p (t_out th)
                                    | inr rs => mkth rest PStart (rs :: t_out th)
                                    end (w_th w)) log).
  Proof.
    intros Hw Hth Hframe Hown j thj Hj. cbn [w_sh w_th] in *.
    destruct (nth_error_set_nth_inv _ _ _ _ _ _ Hth Hj) as [[-> ->]|[_ Hj']].
    - destruct r as [p'|rs]; cbn [t_ops t_pc]; [exact (Hown p' eq_refl)|].
      destruct rest; [exact I | apply Rstart].
    - specialize (Hw j thj Hj'). destruct (t_ops thj); [exact I | exact (Hframe _ _ Hw)].
  Qed.
End Threads.

Record WInv (progs : list (list op)) (st0 : astate) (w : world) : Prop := {
  wi_table : table_ok (w_sh w);
  wi_pc : threads_ok pc_ok w;
  wi_lin : lin_rel st0 (map snd (w_log w)) (abs (w_sh w));
  wi_thr : forall i th, nth_error (w_th w) i = Some th ->
           nth_error progs i = Some (map c_op (commits_of i (w_log w)) ++ t_ops th) /\
           rev (t_out th) = map c_resp (commits_of i (w_log w))
}.

Theorem tstep_WInv progs st0 w i : WInv progs st0 w -> WInv progs st0 (tstep w i).
Proof.
  intros H. destruct (tstep_spec w i) as [|th o rest s' r c Hth Hops Hstep]; [exact H|].
  destruct H as [Htab Hpc Hlin Hthr].
  pose proof (Hpc i th Hth) as Hpci. destruct (Hthr i th Hth) as [Hpi Hout]. rewrite Hops in Hpci, Hpi.
  destruct (opstep_sim _ _ _ _ _ _ Htab Hpci Hstep) as (Htab' & Hext & Hoth & Hc).
  assert (Hframe : forall o2 p2, pc_ok (w_sh w) o2 p2 -> pc_ok s' o2 p2) by eauto using pc_ok_ext.
  destruct c as [cm|].
  - destruct Hc as (-> & <- & Hcm).
    constructor; cbn [w_sh w_th w_log]; trivial.
    + apply (threads_step _ pc_ok_start _ _ _ (c_op cm) rest _ (inr (c_resp cm))); trivial. intros p' [=].
    + rewrite map_app. eapply lin_snoc; eassumption.
    + intros j thj Hj. destruct (nth_error_set_nth_inv _ _ _ _ _ _ Hth Hj) as [[-> ->]|[Hne Hj']].
      * rewrite commits_of_snoc_same, !map_app, <- app_assoc, <- Hout. auto.
      * rewrite commits_of_snoc_other by auto. auto.
  - destruct Hc as (Hsame & p' & -> & Hp').
    constructor; cbn [w_sh w_th w_log]; trivial.
    + apply (threads_step _ pc_ok_start _ _ _ o rest _ (inl p')); trivial. intros ? [= <-]. exact Hp'.
    + apply (lin_rel_ext _ _ _ _ Hlin).
      intros k. destruct (N.eq_dec k (key_of o)) as [->|Hne]; auto.
    + intros j thj Hj. destruct (nth_error_set_nth_inv _ _ _ _ _ _ Hth Hj) as [[-> ->]|[Hne Hj']]; auto.
Qed.

Lemma init_WInv shards progs : WInv progs (fun _ => None) (init_world shards progs).
Proof.
  constructor.
  - split; intros; discriminate.
  - apply threads_init, pc_ok_start.
  - apply lin_nil. reflexivity.
  - intros i th H. destruct (init_thread _ _ _ _ H) as (p & Hp & ->). auto.
Qed.

(* For every set of programs, every schedule and any amount of completion, the commit log is a
   legal sequential history from the empty store to the final contents, and every thread received
   exactly the responses of its own commits, in program order.  Commits are logged at the step
   that answers the call, so the order of the log is the order of the responses: a call that
   answered before another one started is linearized before it. *)
Theorem every_schedule_linearizable shards progs sched fuel :
  let w := finish fuel (run (init_world shards progs) sched) in
  lin_rel (fun _ => None) (map snd (w_log w)) (abs (w_sh w)) /\
  forall i th, nth_error (w_th w) i = Some th ->
    nth_error progs i = Some (map c_op (commits_of i (w_log w)) ++ t_ops th) /\
    rev (t_out th) = map c_resp (commits_of i (w_log w)).
Proof.
  intros w.
  assert (H : WInv progs (fun _ => None) w).
  { apply exec_inv; [apply tstep_WInv | apply init_WInv]. }
  exact (conj (wi_lin _ _ _ H) (wi_thr _ _ _ H)).
Qed.

Lemma spec_accept_lt v0 t0 o ts ex st2 r :
  spec_step (Some (v0, t0)) o ts ex = (st2, r) -> st2 <> Some (v0, t0) -> t0 < ts.
Proof.
  intros H Hne. destruct (ts <=? t0) eqn:Hle; [|apply N.leb_gt; exact Hle].
  destruct o; cbn [spec_step] in H; rewrite ?Hle, ?andb_true_r in H;
    [ | | | destruct (val_eqb v0 exp) | destruct ex, v0 | | ]; cbn in H; congruence.
Qed.

(* an accepted modification never lands on a state carrying an equal or newer timestamp *)
Theorem accepted_write_on_older st1 c st2 v0 t0 :
  commit_ok st1 c st2 -> st1 = Some (v0, t0) -> st2 <> st1 -> t0 < c_ts c.
Proof.
  unfold commit_ok. intros H -> Hne.
  destruct (c_dev c); [destruct H as [H _]; congruence|].
  exact (spec_accept_lt _ _ _ _ _ _ _ H Hne).
Qed.

Definition incr_commit (k : N) (c : commit) : Prop :=
  key_of (c_op c) = k -> exists d t z, c_op c = OIncr k d t /\ c_dev c = false /\ c_resp c = RInt z.

Definition cnt_step (k : N) (acc : option Z) (c : commit) : option Z :=
  if key_of (c_op c) =? k then
    match c_op c with
    | OIncr _ d _ => Some (match acc with None => d | Some z => sat_add_i64 z d end)
    | _ => acc
    end
  else acc.

Definition counter_after (k : N) (log : list commit) : option Z := fold_left (cnt_step k) log None.

(* no increment is lost: when the only calls that touch k are successful increments, the key
   holds the (saturating) sum of all their deltas *)
Theorem no_lost_increment k st0 log st :
  lin_rel st0 log st -> st0 k = None -> Forall (incr_commit k) log ->
  match counter_after k log with
  | None => st k = None
  | Some z => exists t, st k = Some (VC z, t)
  end.
Proof.
  intros Hrel H0. induction Hrel as [sa sb Hab | sa lg sb c sc Hrel IH Hoth Hc]; intros Hall.
  - cbn. rewrite Hab. exact H0.
  - apply Forall_app in Hall. destruct Hall as [Hall Hc1]. inversion Hc1 as [|? ? Hic _]; subst.
    specialize (IH H0 Hall). unfold counter_after in *. rewrite fold_left_app. cbn [fold_left].
    set (acc := fold_left (cnt_step k) lg None) in *.
    unfold cnt_step. destruct (N.eqb_spec (key_of (c_op c)) k) as [Ek|Ek].
    + destruct (Hic Ek) as (d & t & z & Hop & Hdev & Hresp).
      unfold commit_ok in Hc. rewrite Hdev, Hresp, Ek in Hc. rewrite Hop in Hc |- *.
      destruct acc as [z0|].
      * destruct IH as [t0 IH]. rewrite IH in Hc. cbn in Hc.
        destruct (c_ex c && (c_ts c <=? t0)); [discriminate|].
        destruct (c_ts c <=? t0); inversion Hc. eexists. reflexivity.
      * rewrite IH in Hc. inversion Hc. eexists. reflexivity.
    + rewrite (Hoth k (not_eq_sym Ek)). exact IH.
Qed.

Definition ifabsent_win (k : N) (c : commit) : bool :=
  match c_op c, c_resp c with
  | OIfAbsent k' _, RBool true => k' =? k
  | _, _ => false
  end.

Definition not_delete_of (k : N) (c : commit) : Prop :=
  match c_op c with ODelete k' _ => k' <> k \/ c_resp c <> RUnit | _ => True end.

Lemma spec_removes x o ts ex r :
  spec_step (Some x) o ts ex = (None, r) -> (exists k t, o = ODelete k t) /\ r = RUnit.
Proof.
  intros H. destruct x as [v0 t0].
  destruct o; cbn [spec_step] in H; [ | | | destruct (val_eqb v0 exp) | destruct ex | | ];
    destruct (ts <=? t0), v0; cbn in H; try discriminate H; inversion H; eauto.
Qed.

Lemma winner_key k c : ifabsent_win k c = true -> key_of (c_op c) = k.
Proof.
  unfold ifabsent_win. intros Hw.
  destruct (c_op c); try discriminate. destruct (c_resp c) as [| | |[|]| | | |]; try discriminate.
  apply N.eqb_eq. exact Hw.
Qed.

Lemma winner_inserts k st1 c st2 :
  commit_ok st1 c st2 -> ifabsent_win k c = true -> st1 = None /\ st2 <> None.
Proof.
  unfold commit_ok, ifabsent_win. intros H Hw.
  destruct (c_op c); try discriminate. destruct (c_resp c) as [| | |[|]| | | |]; try discriminate.
  destruct (c_dev c); [destruct H as [_ [H|H]]; discriminate|].
  destruct st1; inversion H. split; [reflexivity | discriminate].
Qed.

Lemma present_stays k st1 c st2 :
  commit_ok st1 c st2 -> key_of (c_op c) = k -> not_delete_of k c -> st1 <> None -> st2 <> None.
Proof.
  unfold commit_ok, not_delete_of. intros H Hk Hnd Hp Hn. subst st2.
  destruct (c_dev c); [destruct H as [H _]; congruence|].
  destruct st1 as [x|]; [|congruence].
  destruct (spec_removes _ _ _ _ _ H) as [(k' & t & Ho) Hr]. rewrite Ho in *. cbn in Hk. tauto.
Qed.

(* the key stays absent only as long as nobody has won and it was absent from the start *)
Lemma one_winner_inv k st0 log st :
  lin_rel st0 log st -> Forall (not_delete_of k) log ->
  (length (filter (ifabsent_win k) log) + (match st0 k with Some _ => 1 | None => 0 end) <= 1)%nat /\
  (st k = None -> filter (ifabsent_win k) log = [] /\ st0 k = None).
Proof.
  intros Hrel. induction Hrel as [sa sb Hab | sa lg sb c sc Hrel IH Hoth Hc]; intros Hall.
  - cbn. rewrite Hab. split; [destruct (sa k); lia | auto].
  - apply Forall_app in Hall. destruct Hall as [Hall Hc1]. inversion Hc1 as [|? ? Hnd _]; subst.
    destruct (IH Hall) as [IH1 IH2]. rewrite filter_app. cbn [filter].
    destruct (ifabsent_win k c) eqn:Hw.
    + (* a winner: the key was absent before, and is present now *)
      rewrite (winner_key k c Hw) in Hc. destruct (winner_inserts _ _ _ _ Hc Hw) as [Hn Hp].
      destruct (IH2 Hn) as [-> ->]. split; [cbn; lia | contradiction].
    + rewrite app_nil_r. split; [exact IH1|]. intros Hn. apply IH2.
      destruct (N.eq_dec (key_of (c_op c)) k) as [Ek|Ek].
      * rewrite Ek in Hc. destruct (sb k) eqn:Hsb; [|reflexivity].
        exfalso. apply (present_stays _ _ _ _ Hc Ek Hnd); [discriminate | exact Hn].
      * rewrite <- (Hoth k (not_eq_sym Ek)). exact Hn.
Qed.

(* exactly one of several racing insert-if-absent calls wins, as long as nobody deletes the key *)
Theorem one_winner_insert_if_absent k st0 log st :
  lin_rel st0 log st -> Forall (not_delete_of k) log ->
  (length (filter (ifabsent_win k) log) + (match st0 k with Some _ => 1 | None => 0 end) <= 1)%nat /\
  (length (filter (ifabsent_win k) log) = 1%nat \/ st0 k <> None -> st k <> None).
Proof.
  intros Hrel Hall. destruct (one_winner_inv _ _ _ _ Hrel Hall) as [H1 H2].
  split; [exact H1|]. intros H Hn. destruct (H2 Hn) as [Hw H0]. rewrite Hw in H.
  destruct H; [discriminate | contradiction].
Qed.

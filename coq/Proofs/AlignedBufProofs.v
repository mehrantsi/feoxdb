(* C20, utils/allocator.rs AlignedBuffer: under any sequence of safe calls the length stays within
   the capacity and the capacity within the allocation, which is the request rounded up to blocks. *)
From Coq Require Import NArith List Lia.
From Feox Require Import Model.AlignedBuf Proofs.ListFacts.
Local Open Scope N_scope.

(* rounding up to a multiple of b, the way utils/allocator.rs does for blocks and for pages *)
Lemma roundup_spec b n : 0 < b -> n <= (n + b - 1) / b * b < n + b /\ ((n + b - 1) / b * b) mod b = 0.
Proof.
  intros Hb. split; [|apply N.mod_mul; lia].
  pose proof (N.div_mod (n + b - 1) b ltac:(lia)) as H. rewrite (N.mul_comm b) in H.
  pose proof (N.mod_lt (n + b - 1) b ltac:(lia)).
  set (q := (n + b - 1) / b) in *. set (r := (n + b - 1) mod b) in *. lia.
Qed.

Definition ab_ok (b : abuf) : Prop := ab_len b <= ab_cap b /\ ab_cap b <= ab_alloc b.

Lemma ab_step_ok b o :
  ab_ok b -> ab_ok (fst (ab_step b o)) /\ ab_cap (fst (ab_step b o)) = ab_cap b /\ ab_alloc (fst (ab_step b o)) = ab_alloc b.
Proof.
  intros [H1 H2]. unfold ab_ok. destruct o as [n|]; cbn; [destruct (N.leb_spec n (ab_cap b))|]; cbn; lia.
Qed.

(* for every requested capacity and every sequence of safe calls, the slice handed out by
   as_slice / as_mut_slice (the first len bytes) lies inside the allocation, the advertised
   capacity covers the request, and the allocation is a whole number of blocks *)
Theorem safe_slices_stay_inside_the_allocation capacity ops :
  let b := ab_run capacity ops in
  ab_len b <= ab_alloc b /\ capacity <= ab_cap b /\ ab_cap b <= ab_alloc b /\ ab_alloc b mod BLOCK = 0.
Proof.
  cbv zeta. unfold ab_run.
  destruct (fold_left_inv (fun b o => fst (ab_step b o))
    (fun b => ab_ok b /\ ab_cap b = round_up capacity /\ ab_alloc b = round_up capacity)
    ltac:(intros b o (Hb & Hc & Ha); destruct (ab_step_ok b o Hb) as (A & B & C); split; [exact A | split; congruence])
    ops (ab_new capacity)) as ([A1 A2] & B & C).
  { unfold ab_ok, ab_new; cbn; lia. }
  destruct (roundup_spec BLOCK capacity eq_refl) as [[R1 _] R2]. fold (round_up capacity) in R1, R2.
  rewrite C, B in *. intuition lia.
Qed.

(* a set_len beyond the capacity is refused and changes nothing *)
Theorem oversized_set_len_is_refused b n : ab_cap b < n -> ab_step b (ASetLen n) = (b, APanic).
Proof. intros H. cbn. destruct (N.leb_spec n (ab_cap b)); [lia | reflexivity]. Qed.

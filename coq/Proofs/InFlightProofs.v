(* C20, io.rs InFlightBuffers: a buffer whose address the kernel may still hold is never freed,
   whatever the order of pushes, submissions, failures, completions and the final drop; and the
   drop leaks only buffers that were marked in flight. *)
From Coq Require Import List Arith Lia.
From Feox Require Import Model.InFlight Proofs.ListFacts Proofs.SetNthFacts.
Import ListNotations.

Lemma nth_snoc_default {A} (l : list A) d i : nth i (l ++ [d]) d = nth i l d.
Proof. revert i. induction l as [|x t IH]; intros [|i]; cbn; auto. destruct i; reflexivity. Qed.

Record IFInv (s : ifb) : Prop := {
  if_len1 : length (inflight s) = length (bufs s);
  if_len2 : length (kern s) = length (bufs s);
  if_sub : forall i, nth i (kern s) false = true -> nth i (inflight s) false = true;
  if_safe : forall i, nth i (kern s) false = true -> nth i (bufs s) Owned <> Freed;
  if_owned : dropped s = false -> forall i, nth i (bufs s) Owned = Owned
}.

Lemma ifinit_IFInv : IFInv ifinit.
Proof. constructor; cbn; try reflexivity; try (intros [|i] H; discriminate). intros _ [|i]; reflexivity. Qed.

Lemma drop_all_length bs : forall fl, length (drop_all bs fl) = length bs.
Proof. induction bs as [|b bt IH]; intros [|f ft]; cbn; auto. Qed.

Lemma nth_drop_all bs : forall fl i,
  nth i (drop_all bs fl) Owned = if i <? length bs then drop_one (nth i bs Owned) (nth i fl false) else Owned.
Proof.
  induction bs as [|b bt IH]; intros fl i; [destruct i; reflexivity|].
  destruct fl as [|f ft], i as [|i]; cbn [drop_all nth]; try reflexivity; rewrite IH; [destruct i|]; reflexivity.
Qed.

Lemma nth_true_lt (l : list bool) i : nth i l false = true -> i < length l.
Proof. intros H. destruct (Nat.lt_ge_cases i (length l)) as [Hl|Hl]; [exact Hl|]. rewrite nth_overflow in H by exact Hl. discriminate. Qed.

Theorem ifstep_IFInv s e : IFInv s -> IFInv (ifstep s e).
Proof.
  intros Hinv. unfold ifstep. destruct (dropped s) eqn:Hd; [exact Hinv|].
  pose proof Hinv as [L1 L2 Hsub _ Hown]. specialize (Hown Hd).
  (* nothing is freed before the drop *)
  assert (Hsafe : forall i, nth i (bufs s) Owned <> Freed) by (intros i; rewrite Hown; discriminate).
  destruct e as [|i|i|i|i|]; cbn.
  - constructor; cbn; rewrite ?app_length; cbn; try lia; intros; rewrite ?nth_snoc_default in *; auto.
  - constructor; cbn; rewrite ?length_set_nth; auto.
    intros j H. destruct (Nat.eq_dec i j) as [<-|Hne].
    + apply nth_set_nth_same. rewrite L1, <- L2. exact (nth_true_lt _ _ H).
    + rewrite nth_set_nth_other by exact Hne. auto.
  - destruct (nth i (inflight s) false) eqn:Ef; [|exact Hinv].
    constructor; cbn; rewrite ?length_set_nth; auto.
    intros j H. destruct (Nat.eq_dec i j) as [<-|Hne]; [exact Ef|].
    rewrite nth_set_nth_other in H by exact Hne. auto.
  - destruct (nth i (kern s) false) eqn:Ek; [exact Hinv|].
    constructor; cbn; rewrite ?length_set_nth; auto.
    intros j H. destruct (Nat.eq_dec i j) as [<-|Hne]; [congruence|].
    rewrite nth_set_nth_other by exact Hne. auto.
  - destruct (nth i (kern s) false) eqn:Ek; [|exact Hinv].
    constructor; cbn; rewrite ?length_set_nth; auto.
    intros j H. destruct (Nat.eq_dec i j) as [<-|Hne].
    + rewrite nth_set_nth_same in H by (exact (nth_true_lt _ _ Ek)). discriminate.
    + rewrite nth_set_nth_other in H by exact Hne. rewrite nth_set_nth_other by exact Hne. auto.
  - constructor; cbn; rewrite ?drop_all_length; auto; [|discriminate].
    intros j H. rewrite nth_drop_all, (Hsub j H), Hown. destruct (j <? length (bufs s)); discriminate.
Qed.

Theorem ifrun_IFInv evs s : IFInv s -> IFInv (ifrun s evs).
Proof. apply fold_left_inv. exact ifstep_IFInv. Qed.

(* whatever the order of pushes, submissions, failures, completions and the final drop,
   a buffer the kernel may still read from is never freed *)
Theorem kernel_referenced_buffer_never_freed evs i :
  let s := ifrun ifinit evs in
  nth i (kern s) false = true -> nth i (bufs s) Owned <> Freed.
Proof. exact (if_safe _ (ifrun_IFInv evs _ ifinit_IFInv) i). Qed.

(* and nothing is leaked needlessly: a buffer is leaked only if it was marked in flight at the drop *)
Lemma ifstep_leak i s e :
  IFInv s -> (nth i (bufs s) Owned = Leaked -> nth i (inflight s) false = true) ->
  nth i (bufs (ifstep s e)) Owned = Leaked -> nth i (inflight (ifstep s e)) false = true.
Proof.
  intros Hinv Hs. unfold ifstep. destruct (dropped s) eqn:Hd; [exact Hs|].
  (* before the drop nothing is leaked; the drop leaks what is in flight *)
  pose proof (if_owned _ Hinv Hd) as Hown.
  destruct e as [|j|j|j|j|]; cbn.
  - rewrite nth_snoc_default, Hown. discriminate.
  - rewrite Hown. discriminate.
  - destruct (nth j (inflight s) false); cbn; rewrite Hown; discriminate.
  - destruct (nth j (kern s) false); cbn; rewrite Hown; discriminate.
  - destruct (nth j (kern s) false); cbn; rewrite Hown; discriminate.
  - rewrite nth_drop_all, Hown. destruct (i <? length (bufs s)); [|discriminate].
    destruct (nth i (inflight s) false); [reflexivity | discriminate].
Qed.

Theorem leaked_only_if_in_flight evs i :
  let s := ifrun ifinit evs in
  nth i (bufs s) Owned = Leaked -> nth i (inflight s) false = true.
Proof.
  refine (proj2 (fold_left_inv ifstep
    (fun s => IFInv s /\ (nth i (bufs s) Owned = Leaked -> nth i (inflight s) false = true)) _ evs ifinit _)).
  - intros s e [Hinv Hs]. auto using ifstep_IFInv, ifstep_leak.
  - split; [exact ifinit_IFInv|]. destruct i; discriminate.
Qed.

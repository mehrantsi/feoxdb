(* Facts about lists that several models' proofs share; standard library only. *)
From Coq Require Import List Bool.
Import ListNotations.

(* Every model run is a [fold_left] of its step function, possibly over events that pass a
   guard; an invariant of the guarded steps is an invariant of the run. *)
Lemma fold_left_inv_Forall {S E} (step : S -> E -> S) (G : E -> Prop) (P : S -> Prop) :
  (forall s e, G e -> P s -> P (step s e)) -> forall es s, Forall G es -> P s -> P (fold_left step es s).
Proof.
  intros Hstep. induction es as [|e t IH]; intros s Hes Hs; [exact Hs|].
  exact (IH _ (Forall_inv_tail Hes) (Hstep _ _ (Forall_inv Hes) Hs)).
Qed.

Lemma fold_left_inv_guarded {S E} (step : S -> E -> S) (ok : E -> bool) (P : S -> Prop) :
  (forall s e, ok e = true -> P s -> P (step s e)) ->
  forall es s, forallb ok es = true -> P s -> P (fold_left step es s).
Proof.
  intros Hstep es s Hok. apply (fold_left_inv_Forall step (fun e => ok e = true) P Hstep).
  apply Forall_forall, forallb_forall, Hok.
Qed.

Lemma fold_left_inv {S E} (step : S -> E -> S) (P : S -> Prop) :
  (forall s e, P s -> P (step s e)) -> forall es s, P s -> P (fold_left step es s).
Proof.
  intros Hstep. induction es as [|e t IH]; intros s Hs; [exact Hs|]. exact (IH _ (Hstep _ _ Hs)).
Qed.

Lemma skipn_add {A} a : forall b (l : list A), skipn (a + b) l = skipn b (skipn a l).
Proof. induction a as [|a IH]; intros b l; [reflexivity|]. destruct l; cbn; [destruct b; reflexivity|apply IH]. Qed.

Lemma skipn_past {A} (l : list A) a b rest k : skipn a l = b ++ rest -> length b = k -> skipn (a + k) l = rest.
Proof.
  intros H <-. rewrite skipn_add, H, skipn_app, PeanoNat.Nat.sub_diag, skipn_all2 by apply le_n. reflexivity.
Qed.

Lemma skipn_app_length {A} (a b : list A) : skipn (length a) (a ++ b) = b.
Proof. rewrite skipn_app, skipn_all, PeanoNat.Nat.sub_diag. reflexivity. Qed.

Lemma firstn_app_length {A} (a b : list A) n : length a = n -> firstn n (a ++ b) = a.
Proof. intros <-. rewrite firstn_app, PeanoNat.Nat.sub_diag, firstn_all. apply app_nil_r. Qed.

Lemma nth_skipn {A} (d : A) : forall a (l : list A) i, nth i (skipn a l) d = nth (a + i) l d.
Proof. induction a as [|a IH]; intros [|x t] i; cbn [skipn nth plus]; try reflexivity; [destruct i; reflexivity|apply IH]. Qed.

Lemma nth_firstn {A} (d : A) : forall n (l : list A) i, (i < n)%nat -> nth i (firstn n l) d = nth i l d.
Proof.
  induction n as [|n IH]; intros [|x t] i H; cbn [firstn nth]; try reflexivity; [inversion H|].
  destruct i; [reflexivity|]. apply IH. apply PeanoNat.Nat.succ_lt_mono. exact H.
Qed.

Lemma firstn_incl {A} k (l : list A) : incl (firstn k l) l.
Proof. intros x H. rewrite <- (firstn_skipn k l). apply in_or_app. left. exact H. Qed.

Lemma skipn_incl {A} k (l : list A) : incl (skipn k l) l.
Proof. intros x H. rewrite <- (firstn_skipn k l). apply in_or_app. right. exact H. Qed.

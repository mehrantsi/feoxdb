(* The scan over a data area that holds several generations of a key (C03 / C10, newest timestamp
   wins): records in any order and number per key, completed marker runs, free blocks.  The scan
   ends without error and computes exactly the newest-wins fold over the records in device order:
   an older generation than the indexed one is queued for retirement, a generation at least as new
   replaces it (the replaced extent is released and queued).  Consequently the index holds, for
   every key on the device, a generation at least as new as every generation of that key. *)
From Coq Require Import List NArith Bool Lia Arith.
From Feox Require Import Gen.Constants Model.Bytes Model.Codec
                         Model.FreeSpace Proofs.FreeSpaceProofs Model.Recovery
                         Proofs.BytesProofs Proofs.ScanAcceptsProofs Proofs.ScanQuiescentProofs.
Import ListNotations.
Local Open Scope N_scope.

Definition eblocks (version : N) (e : entry) : N := extent_blocks version (N.of_nat (length (e_key e))) (e_vlen e).

(* The newest-timestamp-wins rule of recovery.rs, on the three things it decides: the index, the
   extents queued for retirement (newest first) and the number of keys.  A record met at sector s
   loses to a strictly newer indexed generation and is queued; otherwise it is indexed and the
   generation it displaces, if any, is queued. *)
Record sem := mksem { s_idx : list entry; s_ret : list (N * N); s_cnt : N }.

Definition sem_step (version : N) (a : sem) (p : rec * N) : sem :=
  let '(r, s) := p in
  match idx_find (r_key r) (s_idx a) with
  | Some ex =>
      if r_ts r <? e_ts ex then mksem (s_idx a) ((s, need_of version r) :: s_ret a) (s_cnt a)
      else mksem (idx_upsert (entry_of version r s) (s_idx a)) ((e_sector ex, eblocks version ex) :: s_ret a) (s_cnt a)
  | None => mksem (idx_upsert (entry_of version r s) (s_idx a)) (s_ret a) (s_cnt a + 1)
  end.

(* the records of a layout with the sectors they start at *)
Fixpoint placed (version sector : N) (its : list item) : list (rec * N) :=
  match its with
  | [] => []
  | IRec r :: t => (r, sector) :: placed version (sector + need_of version r) t
  | it :: t => placed version (sector + isize version it) t
  end.

Definition sem_of (st : rstate) : sem := mksem (rs_idx st) (rs_retired st) (rs_count st).

Section Gen.
Variable c : rcfg.
Variable version : N.

Lemma eblocks_entry_of r s : eblocks version (entry_of version r s) = need_of version r.
Proof. reflexivity. Qed.

(* Index, count and retirement queue are what the fold says whenever the scan succeeds; read-only,
   nothing is queued. *)
Definition tracks (a : sem) (st : rstate) : Prop :=
  s_idx a = rs_idx st /\ s_cnt a = rs_count st /\ (c_ro c = false -> s_ret a = rs_retired st).

Lemma tracks_sem_of st : tracks (sem_of st) st.
Proof. repeat split. Qed.

Lemma tracks_read_write a st : c_ro c = false -> tracks a st -> sem_of st = a.
Proof. intros Hrw (Ei & Ec & Er). destruct a. cbn in *. unfold sem_of. rewrite <- Ei, <- Ec, <- (Er Hrw). reflexivity. Qed.

Lemma index_pure_tracks sector r st a f :
  tracks a st -> tracks (sem_step version a (r, sector)) (with_fs (index_pure c version sector r st) f).
Proof.
  intros (Ei & Ec & Er). unfold sem_step, index_pure, displaced, push_retired. rewrite Ei.
  destruct (idx_find (r_key r) (rs_idx st)) as [ex|]; [destruct (r_ts r <? e_ts ex)|];
    (split; [|split]); cbn [s_idx s_cnt s_ret]; destruct (c_ro c);
    cbn [with_fs reindex_one index_one rs_idx rs_count rs_retired]; try discriminate; try intros _;
    rewrite <- ?Ei, <- ?Ec, <- ?(Er eq_refl); reflexivity.
Qed.

Lemma irun_tracks : forall its sector st st' a,
  tracks a st -> irun c version sector its st = Ok st' ->
  tracks (fold_left (sem_step version) (placed version sector its) a) st'.
Proof.
  induction its as [|it t IH]; intros sector st st' a T H; cbn [irun] in H; [injection H as <-; exact T|].
  destruct (item_step c version sector it st) as [st1| |] eqn:E; try discriminate. cbn [bind] in H.
  destruct it as [r|n|]; cbn [item_step placed isize] in *; try (injection E as <-; exact (IH _ _ _ _ T H)).
  destruct (index_record_inv _ _ _ _ _ _ E) as (f & ->). cbn [fold_left].
  exact (IH _ _ _ _ (index_pure_tracks sector r st a f T) H).
Qed.

(* index and free-space manager against each other *)
Definition in_ext (e : entry) (b : N) : Prop := e_sector e <= b < e_sector e + eblocks version e.
Definition used (idx : list entry) (b : N) : Prop := exists k e, idx_find k idx = Some e /\ in_ext e b.

(* SInv, and: no indexed extent holds a free block; every indexed extent is non-empty and lies in
   the data area below the end of the last record; extents indexed under different keys are disjoint *)
Record SJ (total sector : N) (st : rstate) : Prop := {
  sj_space : SInv total sector st;
  sj_unused : forall b, free (rs_fs st) b -> ~ used (rs_idx st) b;
  sj_ext : forall k e, idx_find k (rs_idx st) = Some e ->
             FEOX_DATA_START_BLOCK <= e_sector e /\ 0 < eblocks version e /\ e_sector e + eblocks version e <= rs_last_end st;
  sj_disj : forall k1 k2 e1 e2, idx_find k1 (rs_idx st) = Some e1 -> idx_find k2 (rs_idx st) = Some e2 -> k1 <> k2 ->
            forall b, in_ext e1 b -> ~ in_ext e2 b
}.

(* only the index, the free-space manager and the end of the last record matter *)
Lemma SJ_frame total sector sector' st st' :
  SJ total sector st -> rs_idx st' = rs_idx st -> rs_fs st' = rs_fs st -> rs_last_end st' = rs_last_end st ->
  sector <= sector' -> SJ total sector' st'.
Proof.
  intros [[I D Lo Hi Fr] Nu Xt Dj] Ei Ef El Hs. constructor; [constructor|..]; rewrite ?Ei, ?Ef, ?El; try assumption. lia.
Qed.

Lemma SJ_initial total st0 :
  rs_fs st0 = mkfs [] (total * FEOX_BLOCK_SIZE) 0 0 -> rs_last_end st0 = FEOX_DATA_START_BLOCK -> rs_idx st0 = [] ->
  total * FEOX_BLOCK_SIZE < U64 -> FEOX_DATA_START_BLOCK < total ->
  SJ total FEOX_DATA_START_BLOCK st0.
Proof.
  intros Hfs Hle Hidx Hu Hpos. constructor; [apply SInv_initial; assumption|rewrite Hfs; intros b Hb; destruct (freel_nil b Hb)|..];
    rewrite Hidx; discriminate.
Qed.

(* the record at `sector` indexed over a state whose extents end at or before `sector`: what has to
   hold of the new free-space manager `f` *)
Lemma SJ_upsert total sector st r f st1 :
  SJ total sector st -> 0 < need_of version r ->
  Inv f -> dev_sectors f = total ->
  (forall b, free f b -> b < sector /\
     forall k e, list_eqb (r_key r) k = false -> idx_find k (rs_idx st) = Some e -> ~ in_ext e b) ->
  rs_idx st1 = idx_upsert (entry_of version r sector) (rs_idx st) -> rs_fs st1 = f ->
  rs_last_end st1 = sector + need_of version r ->
  SJ total (sector + need_of version r) st1.
Proof.
  intros [[I D Lo Hi Fr] Nu Xt Dj] NP If Df Hf Ei Ef El.
  (* an entry of the new index is the new one, at `sector`, or an old one, which ends before it *)
  assert (Old : forall k e, idx_find k (rs_idx st1) = Some e ->
            (list_eqb (r_key r) k = true /\ e = entry_of version r sector) \/
            (list_eqb (r_key r) k = false /\ idx_find k (rs_idx st) = Some e /\ e_sector e + eblocks version e <= sector)).
  { intros k e. rewrite Ei, idx_find_upsert. cbn [entry_of e_key]. destruct (list_eqb (r_key r) k); [intros [= <-]; left; split; reflexivity|].
    intros Fk. right. split; [reflexivity|]. split; [exact Fk|]. destruct (Xt _ _ Fk) as (_ & _ & Y). lia. }
  constructor; [constructor|..]; rewrite ?Ef, ?El; try assumption; try lia.
  - intros b Hb. destruct (Hf b Hb). lia.
  - intros b Hb (k & e & Fk & Ib). destruct (Hf b Hb) as [Hlt Hn].
    destruct (Old _ _ Fk) as [[_ ->]|(Ek & Fk0 & _)]; [unfold in_ext in Ib; cbn [entry_of e_sector] in Ib; lia|].
    exact (Hn k e Ek Fk0 Ib).
  - intros k e Fk. destruct (Old _ _ Fk) as [[_ ->]|(_ & Fk0 & Y)].
    + rewrite eblocks_entry_of. cbn [entry_of e_sector]. lia.
    + destruct (Xt _ _ Fk0) as (Y1 & Y2 & _). lia.
  - intros k1 k2 e1 e2 F1 F2 Hne b B1 B2. unfold in_ext in B1, B2.
    destruct (Old _ _ F1) as [[E1 ->]|(_ & F1' & Y1)]; destruct (Old _ _ F2) as [[E2 ->]|(_ & F2' & Y2)];
      rewrite ?eblocks_entry_of in *; cbn [entry_of e_sector] in *; try lia.
    + apply list_eqb_eq in E1. apply list_eqb_eq in E2. congruence.
    + exact (Dj _ _ _ _ F1' F2' Hne b B1 B2).
Qed.

Variable total : N.

(* one record met by the scan: the three cases of the index *)
Lemma index_record_SJ sector st r :
  rec_ok version r -> SJ total sector st -> sector + need_of version r <= total ->
  exists st1, index_record c version sector r st = Ok st1 /\ SJ total (sector + need_of version r) st1.
Proof.
  intros Hr J Hin. pose proof (need_of_pos version r Hr) as NP. pose proof J as [SI Nu Xt Dj]. pose proof SI as [I D Lo Hi Fr].
  destruct (idx_find (r_key r) (rs_idx st)) as [ex|] eqn:F; [destruct (N.lt_ge_cases (r_ts r) (e_ts ex)) as [Hlt|Hge]|].
  - (* an older generation: queued for retirement, nothing else changes *)
    rewrite (index_record_older c version sector r st ex F Hlt). eexists. split; [reflexivity|].
    apply (SJ_frame total sector _ st _ J); [unfold push_retired; destruct (c_ro c); reflexivity ..|lia].
  - (* a generation at least as new: the indexed one is released and queued, the entry replaced *)
    rewrite (index_record_newer c version sector r st ex F Hge). fold (eblocks version ex).
    destruct (Xt _ _ F) as (X1 & X2 & X3).
    destruct (fs_release_ok st (e_sector ex) (eblocks version ex) I) as (f1 & -> & I1 & D1 & F1).
    { unfold release_ok. repeat split; try lia. intros b Hb Hfree. apply (Nu b Hfree). exists (r_key r), ex. split; assumption. }
    cbn [bind]. set (st3 := displaced c version ex (with_fs st f1)).
    assert (E3 : rs_idx st3 = rs_idx st /\ rs_fs st3 = f1 /\ rs_last_end st3 = rs_last_end st)
      by (unfold st3, displaced, push_retired; destruct (c_ro c); repeat split).
    destruct E3 as (Ei3 & Ef3 & El3).
    destruct (gap_release total sector st3) as (f4 & -> & I4 & D4 & F4); [|lia|].
    { constructor; rewrite ?Ef3, ?El3; try assumption; [congruence|].
      intros b Hb. apply F1 in Hb. destruct Hb as [Hb|Hb]; [exact (Fr b Hb)|lia]. }
    cbn [bind]. eexists. split; [reflexivity|].
    apply (SJ_upsert total sector st r f4); try assumption; [|cbn [reindex_one index_one with_fs rs_idx]; rewrite Ei3; reflexivity|reflexivity ..].
    intros b Hb. apply F4 in Hb. rewrite Ef3, El3 in Hb. split.
    + destruct Hb as [Hb|Hb]; [apply F1 in Hb; destruct Hb as [Hb|Hb]; [specialize (Fr b Hb)|]|]; lia.
    + intros k e Ek Fk Ib. destruct Hb as [Hb|Hb]; [apply F1 in Hb; destruct Hb as [Hb|Hb]|].
      * apply (Nu b Hb). exists k, e. split; assumption.
      * apply list_eqb_neq in Ek. exact (Dj _ _ _ _ F Fk Ek b Hb Ib).
      * destruct (Xt _ _ Fk) as (_ & _ & Y). unfold in_ext in Ib. lia.
  - (* a key the index does not hold yet *)
    rewrite (index_record_fresh c version sector r st F).
    destruct (gap_release total sector st SI) as (f & -> & If & Df & Ff); [lia|]. cbn [bind]. eexists. split; [reflexivity|].
    apply (SJ_upsert total sector st r f); try assumption; try reflexivity.
    intros b Hb. apply Ff in Hb. split; [destruct Hb as [Hb|Hb]; [specialize (Fr b Hb)|]; lia|].
    intros k e _ Fk Ib. destruct Hb as [Hb|Hb]; [apply (Nu b Hb); exists k, e; split; assumption|].
    destruct (Xt _ _ Fk) as (_ & _ & Y). unfold in_ext in Ib. lia.
Qed.

Theorem irun_keeps_index_and_free_space_apart : forall its sector st,
  Forall (item_ok version) its -> SJ total sector st -> total = sector + isum version its ->
  exists st', irun c version sector its st = Ok st' /\ SJ total total st'.
Proof.
  induction its as [|it t IH]; intros sector st Hok J Htot; cbn [isum] in Htot.
  - exists st. split; [reflexivity|]. apply (SJ_frame total sector total st st J); auto. lia.
  - pose proof (isize_pos version it (Forall_inv Hok)) as SP. cbn [irun].
    assert (J1 : exists st1, item_step c version sector it st = Ok st1 /\ SJ total (sector + isize version it) st1).
    { destruct it as [r|n|]; cbn [item_step isize] in *; [apply index_record_SJ; [exact (Forall_inv Hok)|exact J|lia]|..];
        (exists st; split; [reflexivity|]; apply (SJ_frame total sector _ st _ J); auto; lia). }
    destruct J1 as (st1 & -> & J1). cbn [bind]. apply IH; [exact (Forall_inv_tail Hok)|exact J1|lia].
Qed.

End Gen.

(* what the fold means: newest timestamp wins, whatever the order on the device *)
Lemma sem_step_keeps_newer version a p k e :
  idx_find k (s_idx a) = Some e ->
  exists e', idx_find k (s_idx (sem_step version a p)) = Some e' /\ e_ts e <= e_ts e'.
Proof.
  intros H. destruct p as [r s]. unfold sem_step.
  destruct (idx_find (r_key r) (s_idx a)) as [ex|] eqn:F; [destruct (N.ltb_spec (r_ts r) (e_ts ex))|]; cbn [s_idx];
    try (exists e; split; [exact H|lia]); rewrite idx_find_upsert; cbn [entry_of e_key];
    (destruct (list_eqb (r_key r) k) eqn:E; [apply list_eqb_eq in E; subst k|exists e; split; [exact H|lia]]).
  - rewrite F in H. injection H as ->. eexists. split; [reflexivity|cbn [entry_of e_ts]; lia].
  - congruence.
Qed.

Lemma sem_fold_keeps_newer version ps : forall a k e,
  idx_find k (s_idx a) = Some e ->
  exists e', idx_find k (s_idx (fold_left (sem_step version) ps a)) = Some e' /\ e_ts e <= e_ts e'.
Proof.
  induction ps as [|p t IH]; intros a k e H; [exists e; split; [exact H|lia]|]. cbn [fold_left].
  destruct (sem_step_keeps_newer version a p k e H) as (e1 & H1 & L1).
  destruct (IH _ _ _ H1) as (e2 & H2 & L2). exists e2. split; [exact H2|lia].
Qed.

(* every generation on the device is dominated by the indexed generation of its key *)
Theorem newest_generation_wins version ps : forall a r s,
  In (r, s) ps ->
  exists e, idx_find (r_key r) (s_idx (fold_left (sem_step version) ps a)) = Some e /\ r_ts r <= e_ts e.
Proof.
  induction ps as [|p t IH]; intros a r s Hin; [destruct Hin|]. cbn [fold_left]. destruct Hin as [->|Hin]; [|exact (IH _ _ _ Hin)].
  assert (H1 : exists e1, idx_find (r_key r) (s_idx (sem_step version a (r, s))) = Some e1 /\ r_ts r <= e_ts e1).
  { unfold sem_step. destruct (idx_find (r_key r) (s_idx a)) as [ex|] eqn:F; [destruct (N.ltb_spec (r_ts r) (e_ts ex))|]; cbn [s_idx];
      [exists ex; split; [exact F|lia]|..];
      (eexists; rewrite idx_find_upsert; cbn [entry_of e_key]; rewrite list_eqb_refl; split; [reflexivity|cbn [entry_of e_ts]; lia]). }
  destruct H1 as (e1 & F1 & L1). destruct (sem_fold_keeps_newer version t _ _ _ F1) as (e2 & F2 & L2).
  exists e2. split; [exact F2|lia].
Qed.

(* and every indexed entry is a generation that is on the device (or was indexed before) *)
Theorem indexed_generations_are_genuine version ps : forall a k e,
  idx_find k (s_idx (fold_left (sem_step version) ps a)) = Some e ->
  idx_find k (s_idx a) = Some e \/ exists r s, In (r, s) ps /\ e = entry_of version r s.
Proof.
  induction ps as [|p t IH]; intros a k e H; [left; exact H|]. cbn [fold_left] in H.
  destruct (IH _ _ _ H) as [H1|(r & s & Hin & E)]; [|right; exists r, s; split; [right; exact Hin|exact E]].
  destruct p as [r s]. unfold sem_step in H1.
  assert (Up : idx_find k (idx_upsert (entry_of version r s) (s_idx a)) = Some e ->
               idx_find k (s_idx a) = Some e \/ exists r0 s0, In (r0, s0) ((r, s) :: t) /\ e = entry_of version r0 s0).
  { rewrite idx_find_upsert. destruct (list_eqb _ k); [|left; assumption].
    intros [= <-]. right. exists r, s. split; [left|]; reflexivity. }
  destruct (idx_find (r_key r) (s_idx a)) as [ex|]; [destruct (r_ts r <? e_ts ex)|]; cbn [s_idx] in H1;
    [left; exact H1|exact (Up H1) ..].
Qed.

Theorem scan_computes_the_newest_wins_fold c version total jl img its fuel sector st :
  c_ro c = false -> has_token version = true -> total <= U64MAX ->
  Forall (item_ok version) its -> SJ version total sector st ->
  skipn (N.to_nat sector) img = ilayout version sector its ->
  total = sector + isum version its -> (length its < fuel)%nat ->
  exists st',
    scan fuel c version total img sector st jl = Ok st' /\
    SJ version total total st' /\
    sem_of st' = fold_left (sem_step version) (placed version sector its) (sem_of st).
Proof.
  intros Hrw Htok Hmax Hok J Himg Htot Hfuel.
  rewrite (scan_ilayout c version total jl img (or_introl Hrw) its fuel sector st Hok (fun _ _ => conj Htok Hmax) Himg Htot Hfuel).
  destruct (irun_keeps_index_and_free_space_apart c version total its sector st Hok J Htot) as (st' & R & J').
  exists st'. do 2 (split; [assumption|]).
  exact (tracks_read_write c _ _ Hrw (irun_tracks c version its sector st st' _ (tracks_sem_of c st) R)).
Qed.

(* from the state open_image starts the scan with *)
Theorem scan_keeps_the_newest_generation_of_every_key c version total jl img its st0 fuel :
  c_ro c = false -> has_token version = true -> total <= U64MAX ->
  (length its < fuel)%nat ->
  rs_fs st0 = mkfs [] (total * FEOX_BLOCK_SIZE) 0 0 -> rs_last_end st0 = FEOX_DATA_START_BLOCK -> rs_idx st0 = [] ->
  total * FEOX_BLOCK_SIZE < U64 ->
  Forall (item_ok version) its ->
  skipn (N.to_nat FEOX_DATA_START_BLOCK) img = ilayout version FEOX_DATA_START_BLOCK its ->
  total = FEOX_DATA_START_BLOCK + isum version its -> 0 < isum version its ->
  exists st',
    scan fuel c version total img FEOX_DATA_START_BLOCK st0 jl = Ok st' /\
    sem_of st' = fold_left (sem_step version) (placed version FEOX_DATA_START_BLOCK its) (sem_of st0) /\
    (forall r s, In (r, s) (placed version FEOX_DATA_START_BLOCK its) ->
                 exists e, idx_find (r_key r) (rs_idx st') = Some e /\ r_ts r <= e_ts e) /\
    (forall k e, idx_find k (rs_idx st') = Some e ->
                 exists r s, In (r, s) (placed version FEOX_DATA_START_BLOCK its) /\ e = entry_of version r s).
Proof.
  intros Hrw Htok Hmax Hfuel Hfs Hle Hidx Hu Hok Himg Htot Hpos.
  assert (J0 : SJ version total FEOX_DATA_START_BLOCK st0) by (apply SJ_initial; try assumption; lia).
  destruct (scan_computes_the_newest_wins_fold c version total jl img its fuel _ st0 Hrw Htok Hmax Hok J0 Himg Htot Hfuel)
    as (st' & Sc & _ & Sem).
  exists st'. split; [exact Sc|]. split; [exact Sem|].
  change (rs_idx st') with (s_idx (sem_of st')). rewrite Sem. split.
  - apply newest_generation_wins.
  - intros k e H. destruct (indexed_generations_are_genuine version _ _ _ _ H) as [H0|H0]; [|exact H0].
    cbn [sem_of s_idx] in H0. rewrite Hidx in H0. discriminate.
Qed.

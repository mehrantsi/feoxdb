(* Crash safety of the journal protocol (Model/Device.v): for every reachable state, every crash
   image (any subset of the un-synced writes, each possibly torn) recovers -- the open succeeds,
   no torn cell surfaces -- to the logical contents before or after the transaction in flight. *)
From Coq Require Import List NArith Bool Arith Lia.
From Feox Require Import Model.Device.
Import ListNotations.
Local Open Scope N_scope.

(* Device.set_nth takes list, index, value; Proofs/SetNthFacts is about the update of the other
   models, which takes index, value, list *)
Lemma set_nth_length {A} (l : list A) i x : length (set_nth l i x) = length l.
Proof. revert i; induction l as [|h t IH]; intros [|i]; simpl; auto. Qed.

Lemma set_nth_set_nth_same {A} (l : list A) i x y : set_nth (set_nth l i x) i y = set_nth l i y.
Proof. revert i; induction l as [|h t IH]; intros [|i]; simpl; auto. f_equal; auto. Qed.

Lemma set_nth_comm {A} (l : list A) i j x y : i <> j ->
  set_nth (set_nth l i x) j y = set_nth (set_nth l j y) i x.
Proof.
  revert i j; induction l as [|h t IH]; intros [|i] [|j] H; simpl; auto; try congruence.
  f_equal. apply IH. congruence.
Qed.

Lemma nth_set_nth_same {A} (l : list A) i x d : (i < length l)%nat -> nth i (set_nth l i x) d = x.
Proof. revert i; induction l as [|h t IH]; intros [|i] H; simpl in *; auto; try lia. apply IH. lia. Qed.

Lemma nth_set_nth_other {A} (l : list A) i j x d : i <> j -> nth j (set_nth l i x) d = nth j l d.
Proof. revert i j; induction l as [|h t IH]; intros [|i] [|j] H; simpl; auto; congruence. Qed.

Lemma set_nth_app {A} (l1 l2 : list A) x y : set_nth (l1 ++ x :: l2) (length l1) y = l1 ++ y :: l2.
Proof. induction l1 as [|h t IH]; simpl; [reflexivity|]. rewrite IH. reflexivity. Qed.

(* apply_new t and cell_writes t of Model/Device.v are set_cells (t_new t) and cellws (t_new t),
   by conversion: the lemmas are stated over any list of cell writes, not only a transaction's *)
Definition set_cells (ws : list (nat * cell)) (l : list cell) : list cell :=
  fold_left (fun l ic => set_nth l (fst ic) (snd ic)) ws l.

Definition cellws (ws : list (nat * cell)) : list wr := map (fun ic => WCell (fst ic) (snd ic)) ws.

Lemma fold_cellws ws : forall d,
  fold_left apply_wr (cellws ws) d = mkdisk (s0 d) (s1 d) (set_cells ws (cells d)).
Proof. induction ws as [|[i c] t IH]; intros d; simpl; [destruct d; reflexivity|]. rewrite IH. reflexivity. Qed.

Lemma wipe_length exts : forall l, length (wipe exts l) = length l.
Proof. induction exts as [|i t IH]; intros l; simpl; auto. rewrite IH. apply set_nth_length. Qed.

Lemma wipe_app e1 : forall e2 l, wipe (e1 ++ e2) l = wipe e2 (wipe e1 l).
Proof. induction e1 as [|i t IH]; intros e2 l; simpl; auto. Qed.

(* seen from the last extent wiped: it is a marker whatever came before *)
Lemma nth_wipe_in e l i : In i e -> (i < length l)%nat -> nth i (wipe e l) CZero = CMarker.
Proof.
  intros Hin Hlen. induction e as [|j e IH] using rev_ind; [destruct Hin|].
  rewrite wipe_app. cbn [wipe]. destruct (Nat.eq_dec j i) as [->|NE].
  - apply nth_set_nth_same. rewrite wipe_length. exact Hlen.
  - rewrite nth_set_nth_other by exact NE. apply IH.
    apply in_app_or in Hin. destruct Hin as [H|[H|[]]]; tauto.
Qed.

Lemma wipe_absorbs exts : forall l i c, In i exts -> wipe exts (set_nth l i c) = wipe exts l.
Proof.
  induction exts as [|j t IH]; intros l i c Hin; [destruct Hin|]. simpl.
  destruct (Nat.eq_dec j i) as [->|NE].
  - rewrite set_nth_set_nth_same. reflexivity.
  - destruct Hin as [E|Hin]; [congruence|].
    rewrite set_nth_comm by congruence. apply IH; auto.
Qed.

Lemma wipe_absorbs_writes exts ws : forall l,
  (forall i c, In (i, c) ws -> In i exts) -> wipe exts (set_cells ws l) = wipe exts l.
Proof.
  induction ws as [|[i c] t IH]; intros l H; simpl; auto.
  rewrite IH, wipe_absorbs; eauto with datatypes.
Qed.

Definition markers (exts : list nat) : list (nat * cell) := map (fun i => (i, CMarker)) exts.
(* the marker writes as device writes (Model.FailPath.marker_writes, unrelated, counts them) *)
Definition marker_writes (exts : list nat) : list wr := map (fun i => WCell i CMarker) exts.

Lemma in_markers exts i c : In (i, c) (markers exts) -> In i exts /\ c = CMarker.
Proof. intros H. apply in_map_iff in H. destruct H as (j & [= <- <-] & Hj). auto. Qed.

Lemma set_cells_markers exts : forall l, set_cells (markers exts) l = wipe exts l.
Proof. induction exts as [|i t IH]; intros l; simpl; auto. Qed.

Lemma marker_writes_cellws exts : marker_writes exts = cellws (markers exts).
Proof. unfold cellws, markers. rewrite map_map. reflexivity. Qed.

Lemma fold_marker_writes exts : forall d,
  fold_left apply_wr (marker_writes exts) d = mkdisk (s0 d) (s1 d) (wipe exts (cells d)).
Proof. intros d. rewrite marker_writes_cellws, fold_cellws, set_cells_markers. reflexivity. Qed.

Lemma wipe_idem exts l : wipe exts (wipe exts l) = wipe exts l.
Proof.
  rewrite <- (set_cells_markers exts l) at 1. apply wipe_absorbs_writes.
  intros i c H. apply (in_markers _ _ _ H).
Qed.

Definition junk_free (l : list cell) : Prop := existsb is_junk l = false.

Lemma junk_free_set l i c : junk_free l -> c <> CJunk -> junk_free (set_nth l i c).
Proof.
  unfold junk_free. revert i; induction l as [|h t IH]; intros [|i] H Hc; simpl in *; auto.
  - apply orb_false_iff in H. destruct H as (_ & H2). rewrite H2. destruct c; auto. congruence.
  - apply orb_false_iff in H. destruct H as (H1 & H2). rewrite H1. simpl. auto.
Qed.

Lemma junk_free_set_cells ws : forall l,
  junk_free l -> (forall i c, In (i, c) ws -> c <> CJunk) -> junk_free (set_cells ws l).
Proof.
  induction ws as [|[i c] r IH]; intros l H Hc; simpl; auto.
  apply IH; eauto using junk_free_set with datatypes.
Qed.

Lemma junk_free_wipe exts l : junk_free l -> junk_free (wipe exts l).
Proof.
  intros H. rewrite <- set_cells_markers. apply junk_free_set_cells; [exact H|].
  intros i c (_ & ->)%in_markers. discriminate.
Qed.

Lemma junk_free_apply_new t l : junk_free l -> txn_ok t l -> junk_free (apply_new t l).
Proof. intros H (_ & Hnew & _). apply junk_free_set_cells; [exact H|]. intros i c Hin. apply (Hnew i c Hin). Qed.

Lemma slot_of_apply_slot d b s : slot_of (apply_wr d (WSlot b s)) b = s.
Proof. destruct b; reflexivity. Qed.
Lemma slot_of_apply_neg d c s : slot_of (apply_wr d (WSlot (negb c) s)) c = slot_of d c.
Proof. destruct c; reflexivity. Qed.
Lemma cells_apply_slot d b s : cells (apply_wr d (WSlot b s)) = cells d.
Proof. destruct b; reflexivity. Qed.

(* Slot c holds the newest journal state: generation g, state st.  A slot never written counts as
   generation 0, clear. *)
Definition jstate (d : disk) (c : bool) (g : N) (st : jst) : Prop :=
  (slot_of d c = SValid g st \/ (slot_of d c = SZero /\ g = 0 /\ st = JClear)) /\
  older_or_invalid (slot_of d (negb c)) g.

Lemma jstate_clear d c g :
  jstate d c g JClear <-> clear_like (slot_of d c) g /\ older_or_invalid (slot_of d (negb c)) g.
Proof. unfold jstate, clear_like. tauto. Qed.

Lemma jstate_active d c g exts :
  jstate d c g (JActive exts) <->
  slot_of d c = SValid g (JActive exts) /\ older_or_invalid (slot_of d (negb c)) g.
Proof. unfold jstate. intuition discriminate. Qed.

Lemma select_jstate {d c g st} : jstate d c g st -> select (s0 d) (s1 d) = Some (g, st).
Proof.
  unfold jstate, slot_of, older_or_invalid.
  destruct c; cbn [negb]; intros ([->|(-> & -> & ->)] & O).
  - destruct (s0 d) as [|g' t'|]; simpl; auto. destruct (N.ltb_spec g g'); [lia|reflexivity].
  - destruct (s0 d) as [|g' t'|]; simpl; auto. lia.
  - destruct (s1 d) as [|g' t'|]; simpl; auto. destruct (N.ltb_spec g' g); [reflexivity|lia].
  - destruct (s1 d) as [|g' t'|]; simpl; auto. lia.
Qed.

(* what the scan sees of cells l under journal state st *)
Definition seen_of (st : jst) (l : list cell) : list cell :=
  match st with JActive exts => wipe exts l | JClear => l end.

Lemma recover_jstate {d c g st seen} :
  jstate d c g st -> seen_of st (cells d) = seen -> junk_free seen -> recover d = Some seen.
Proof.
  intros S <- J. unfold recover. rewrite (select_jstate S).
  unfold junk_free, seen_of in J. rewrite J. reflexivity.
Qed.

(* the next journal state is written into the other slot *)
Lemma jstate_applied {d c g st} st' :
  jstate d c g st -> jstate (apply_wr d (WSlot (negb c) (SValid (g + 1) st'))) (negb c) (g + 1) st'.
Proof.
  intros (H & _). split; [left; apply slot_of_apply_slot|].
  rewrite negb_involutive, slot_of_apply_neg. destruct H as [->|(-> & _)]; simpl; lia.
Qed.

Lemma jstate_torn {d c g st} : jstate d c g st -> jstate (apply_wr d (WSlot (negb c) SJunk)) c g st.
Proof.
  intros (H & _). split; [rewrite slot_of_apply_neg; exact H|rewrite slot_of_apply_slot; exact I].
Qed.

Lemma jstate_same_slots {d d' c g st} : s0 d' = s0 d -> s1 d' = s1 d -> jstate d c g st -> jstate d' c g st.
Proof. unfold jstate, slot_of. intros -> ->. auto. Qed.

Lemma crash_from_nil d d' : crash_from d [] d' -> d' = d.
Proof. inversion 1; auto. Qed.

Lemma crash_from_one {d w d'} : crash_from d [w] d' -> d' = d \/ d' = apply_wr d w \/ d' = apply_wr d (torn w).
Proof.
  inversion 1 as [|? ? ? ? ? SV CF]; subst. apply crash_from_nil in CF. subst.
  inversion SV; subst; auto.
Qed.

Lemma crash_from_app a : forall b d d',
  crash_from d (a ++ b) d' -> exists dm, crash_from d a dm /\ crash_from dm b d'.
Proof.
  induction a as [|w t IH]; intros b d d' H; simpl in H; [eauto using cf_nil|].
  inversion H as [|? ? ? d1 ? SV CF]; subst.
  destruct (IH _ _ _ CF) as (dm & A & B). eauto using cf_cons.
Qed.

(* the image in which every write landed is the one an fsync makes durable *)
Lemma crash_from_all ws : forall d, crash_from d ws (fold_left apply_wr ws d).
Proof. induction ws as [|w t IH]; intros d; simpl; eauto using cf_nil, cf_cons, sv_applied. Qed.

(* Whatever subset of a batch's cell writes reached the device (applied or torn), wiping the
   journaled extents gives the same cells: this is why a crash among the cell writes recovers the
   cells the batch found, and why a failed batch can always be scrubbed back to them. *)
Lemma crash_from_cells exts ws : forall d d',
  (forall i c, In (i, c) ws -> In i exts) ->
  crash_from d (cellws ws) d' ->
  s0 d' = s0 d /\ s1 d' = s1 d /\ wipe exts (cells d') = wipe exts (cells d).
Proof.
  induction ws as [|[i c] t IH]; intros d d' Hin CF; simpl in CF.
  - apply crash_from_nil in CF. subst. auto.
  - inversion CF as [|? ? ? d1 ? SV CF']; subst.
    destruct (IH d1 d') as (A & B & C); [eauto with datatypes|exact CF'|]. rewrite A, B, C.
    assert (Hi : In i exts) by eauto with datatypes.
    inversion SV; subst; simpl; auto using wipe_absorbs.
Qed.

(* A crash around the write of the next journal state recovers the same cells under the old
   state or under the new one: the write is lost or torn (the old slot still rules), or landed. *)
Lemma crash_slot_write {d c g st st' d' old new} :
  jstate d c g st -> crash_from d [WSlot (negb c) (SValid (g + 1) st')] d' ->
  seen_of st (cells d) = old -> junk_free old -> seen_of st' (cells d) = new -> junk_free new ->
  recover d' = Some old \/ recover d' = Some new.
Proof.
  intros S CF Eo Jo En Jn. destruct (crash_from_one CF) as [->|[->| ->]].
  - left. exact (recover_jstate S Eo Jo).
  - right. apply (recover_jstate (jstate_applied st' S)); [|exact Jn].
    rewrite cells_apply_slot. exact En.
  - left. apply (recover_jstate (jstate_torn S)); [|exact Jo].
    rewrite cells_apply_slot. exact Eo.
Qed.

(* jstate of the durable disk at (cur s, jgen s), clear or active for t, spelled out
   (jstate_clear, jstate_active) *)
Definition slots_clear (s : pstate) : Prop :=
  clear_like (slot_of (durable (dv s)) (cur s)) (jgen s) /\
  older_or_invalid (slot_of (durable (dv s)) (negb (cur s))) (jgen s).

Definition slots_active (s : pstate) (t : txn) : Prop :=
  slot_of (durable (dv s)) (cur s) = SValid (jgen s) (JActive (t_exts t)) /\
  older_or_invalid (slot_of (durable (dv s)) (negb (cur s))) (jgen s).

(* The protocol invariant.  The ghost base holds no junk, and phase by phase: which writes are
   pending, which journal state the durable slots show, whether the durable cells are still the
   base or already the transaction's result, and that the transaction is admissible on the base. *)
Definition PInv (s : pstate) : Prop :=
  junk_free (base s) /\
  match ph s with
  | Idle =>
      pending (dv s) = [] /\ slots_clear s /\ cells (durable (dv s)) = base s
  | ActiveWritten t =>
      pending (dv s) = [WSlot (negb (cur s)) (SValid (jgen s + 1) (JActive (t_exts t)))] /\
      slots_clear s /\ cells (durable (dv s)) = base s /\ txn_ok t (base s)
  | ActiveDurable t =>
      pending (dv s) = [] /\ slots_active s t /\ cells (durable (dv s)) = base s /\ txn_ok t (base s)
  | CellsWritten t =>
      pending (dv s) = cell_writes t /\ slots_active s t /\ cells (durable (dv s)) = base s /\ txn_ok t (base s)
  | CellsDurable t =>
      pending (dv s) = [] /\ slots_active s t /\ cells (durable (dv s)) = apply_new t (base s) /\ txn_ok t (base s)
  | ClearWritten t =>
      pending (dv s) = [WSlot (negb (cur s)) (SValid (jgen s + 1) JClear)] /\
      slots_active s t /\ cells (durable (dv s)) = apply_new t (base s) /\ txn_ok t (base s)
  end.

Lemma quiescent_PInv s : quiescent s -> PInv s.
Proof.
  intros (P & Q & C & O & J & B). unfold PInv. rewrite P, B. repeat split; auto.
Qed.

Local Ltac proj := cbn [dv ph jgen cur base durable pending] in *.

Theorem pstep_PInv s s' : PInv s -> pstep s s' -> PInv s'.
Proof.
  intros (J & H) ST. destruct ST; unfold PInv, slots_clear, slots_active in *; proj.
  - destruct H as (P & SC & CE). subst b. unfold issue. rewrite P. auto 6.
  - destruct H as (P & SC & CE & OK). unfold fsync. rewrite P. cbn [fold_left]. proj.
    rewrite cells_apply_slot. split; [|split; [|split]]; auto.
    apply jstate_active, (jstate_applied (st := JClear)), jstate_clear, SC.
  - destruct H as (P & SA & CE & OK). rewrite P. auto.
  - destruct H as (P & SA & CE & OK). unfold fsync. proj. rewrite P.
    change (cell_writes t) with (cellws (t_new t)). rewrite fold_cellws. proj.
    rewrite CE. auto 6.
  - destruct H as (P & SA & CE & OK). unfold issue. rewrite P. auto.
  - destruct H as (P & SA & CE & OK). unfold fsync. rewrite P. cbn [fold_left]. proj.
    rewrite cells_apply_slot, CE. split; [|split; [|split]]; auto using junk_free_apply_new.
    apply jstate_clear, (jstate_applied (st := JActive (t_exts t))), jstate_active, SA.
Qed.

Theorem reach_PInv s s' : PInv s -> reach s s' -> PInv s'.
Proof. intros H R. induction R as [|s2 s3 R IH ST]; [auto|]. eapply pstep_PInv; [apply IH; auto|exact ST]. Qed.

Lemma wipe_apply_new t l : txn_ok t l -> wipe (t_exts t) (apply_new t l) = wipe (t_exts t) l.
Proof. intros (_ & Hnew & _). apply wipe_absorbs_writes. intros i c Hin. apply (Hnew i c Hin). Qed.

Theorem crash_atomic s d :
  PInv s -> crash_image (dv s) d ->
  exists seen, recover d = Some seen /\
    ((forall k, contents seen k = before s k) \/ (forall k, contents seen k = after s k)).
Proof.
  intros (J & H) CI. unfold crash_image in CI. unfold before, after, slots_clear, slots_active in *.
  destruct (ph s) as [|t|t|t|t|t].
  { destruct H as (P & SC & CE). rewrite P in CI. apply crash_from_nil in CI. subst d.
    apply jstate_clear in SC. exists (base s). split; [exact (recover_jstate SC CE J)|auto]. }
  all: destruct H as (P & S & CE & OK); rewrite P in CI.
  all: pose proof (junk_free_wipe (t_exts t) _ J) as JW.
  all: assert (W : wipe (t_exts t) (cells (durable (dv s))) = wipe (t_exts t) (base s))
         by (rewrite CE; auto using wipe_apply_new).
  (* With a transaction in flight a crash image recovers the base, the base with the extents
     wiped, or the new cells.  The wiped base counts as "before": txn_ok says that the wipe
     changes no contents. *)
  all: pose proof (proj2 (proj2 OK)) as Same.
  all: enough (R : recover d = Some (base s) \/ recover d = Some (wipe (t_exts t) (base s)) \/
                   recover d = Some (apply_new t (base s)))
         by (destruct R as [R|[R|R]]; eauto).
  - (* ActiveWritten: the journal write decides between the base and the wiped base *)
    apply jstate_clear in S. destruct (crash_slot_write S CI CE J W JW); auto.
  - apply crash_from_nil in CI. subst d. apply jstate_active in S.
    right; left. exact (recover_jstate S W JW).
  - (* CellsWritten: whatever subset / tearing of the cell writes survives lies inside the wiped extents *)
    destruct (crash_from_cells (t_exts t) (t_new t) _ _ (fun i c Hin => proj1 (proj1 (proj2 OK) i c Hin)) CI)
      as (A & B & W').
    apply jstate_active, (jstate_same_slots (d' := d) A B) in S.
    right; left. exact (recover_jstate S (eq_trans W' W) JW).
  - apply crash_from_nil in CI. subst d. apply jstate_active in S.
    right; left. exact (recover_jstate S W JW).
  - (* ClearWritten: the clear decides between the wiped base and the new cells *)
    apply jstate_active in S. right.
    apply (crash_slot_write S CI W JW CE). apply junk_free_apply_new; assumption.
Qed.

Definition lt_opt (o : option gen) (n : N) : Prop := match o with None => True | Some a => gts a < n end.

(* one step of [best]: a generation of key k replaces the accumulator unless it is strictly older *)
Definition pick (k : N) (a : option gen) (c : cell) : option gen :=
  match c with
  | CGen g =>
      if gk g =? k then
        match a with Some a0 => if gts g <? gts a0 then a else Some g | None => Some g end
      else a
  | _ => a
  end.

Lemma best_cons k c t a : best k (c :: t) a = best k t (pick k a c).
Proof.
  destruct c as [|g| |]; cbn [best pick]; auto. destruct (gk g =? k); auto.
  destruct a as [a0|]; [destruct (gts g <? gts a0)|]; reflexivity.
Qed.

Lemma best_app k l1 : forall l2 a, best k (l1 ++ l2) a = best k l2 (best k l1 a).
Proof. induction l1 as [|c t IH]; intros l2 a; [reflexivity|]. cbn [app]. rewrite !best_cons. apply IH. Qed.

Lemma pick_mono k a c n : ~ lt_opt a n -> ~ lt_opt (pick k a c) n.
Proof.
  intros Ha. destruct c as [|g| |]; cbn [pick]; auto. destruct (gk g =? k); auto.
  destruct a as [a0|]; [|destruct (Ha I)]. simpl in Ha.
  destruct (N.ltb_spec (gts g) (gts a0)); simpl; lia.
Qed.

Lemma pick_self k a g : gk g = k -> ~ lt_opt (pick k a (CGen g)) (gts g).
Proof.
  intros <-. cbn [pick]. rewrite N.eqb_refl. destruct a as [a0|]; simpl; [|lia].
  destruct (N.ltb_spec (gts g) (gts a0)); simpl; lia.
Qed.

Lemma pick_older k a g n : gts g < n ->
  pick k a (CGen g) = a \/ (gk g = k /\ lt_opt a n /\ lt_opt (pick k a (CGen g)) n).
Proof.
  intros Hg. cbn [pick]. destruct (N.eqb_spec (gk g) k); auto. destruct a as [a0|]; simpl; auto.
  destruct (N.ltb_spec (gts g) (gts a0)); simpl; auto. right. lia.
Qed.

(* two accumulators agree, or are both older than n; a later generation of the key at least as
   new as n then replaces both *)
Definition sim (n : N) (a b : option gen) : Prop := a = b \/ (lt_opt a n /\ lt_opt b n).

Lemma pick_sim k n c a b : sim n a b -> sim n (pick k a c) (pick k b c).
Proof.
  intros [->|(La & Lb)]; [left; reflexivity|].
  destruct c as [|g| |]; try (right; split; assumption).
  cbn [pick]. destruct (gk g =? k); [|right; split; assumption].
  (* by cases on how g compares with a and with b *)
  destruct a as [a0|], b as [b0|]; cbn [lt_opt] in *;
    repeat match goal with |- context [gts g <? ?x] => destruct (N.ltb_spec (gts g) x) end;
    (left; reflexivity) || (right; cbn [lt_opt]; lia).
Qed.

Lemma best_sim k n l : forall a b, sim n a b -> sim n (best k l a) (best k l b).
Proof. induction l as [|c t IH]; intros a b H; [exact H|]. rewrite !best_cons. apply IH, pick_sim, H. Qed.

Lemma best_mono_acc k l : forall a r, best k l a = r -> forall n, ~ lt_opt a n -> ~ lt_opt r n.
Proof.
  induction l as [|c t IH]; intros a r H n Hn; [simpl in H; subst; auto|].
  rewrite best_cons in H. eapply IH; [exact H|]. apply pick_mono, Hn.
Qed.

Lemma best_ge k l a g : In (CGen g) l -> gk g = k -> ~ lt_opt (best k l a) (gts g).
Proof.
  intros Hin Hk. apply in_split in Hin. destruct Hin as (l1 & l2 & ->).
  rewrite best_app, best_cons. eapply best_mono_acc; [reflexivity|]. apply pick_self, Hk.
Qed.

(* a cell that holds no generation, or one that a strictly newer generation of the same key,
   before or after it, supersedes, may be wiped *)
Lemma best_drop k l1 c l2 a :
  (forall g, c = CGen g -> exists g', In (CGen g') (l1 ++ l2) /\ gk g' = gk g /\ gts g < gts g') ->
  best k (l1 ++ c :: l2) a = best k (l1 ++ CMarker :: l2) a.
Proof.
  intros H. rewrite !best_app, !best_cons. cbn [pick]. destruct c as [|g| |]; try reflexivity.
  destruct (H g eq_refl) as (g' & Hin & Hk & Hts).
  destruct (pick_older k (best k l1 a) g _ Hts) as [->|(Ek & L)]; [reflexivity|].
  destruct (best_sim k (gts g') l2 _ _ (or_intror (conj (proj2 L) (proj1 L)))) as [E|(_ & L')]; [exact E|].
  (* the result is not older than g' *)
  rewrite <- best_app in L'. destruct (best_ge k (l1 ++ l2) a g' Hin (eq_trans Hk Ek) L').
Qed.

Lemma nth_gen_In (l : list cell) j g : nth j l CZero = CGen g -> In (CGen g) l.
Proof.
  intros H. destruct (Nat.lt_ge_cases j (length l)) as [LT|GE].
  - rewrite <- H. apply nth_In, LT.
  - rewrite nth_overflow in H by exact GE. discriminate.
Qed.

Lemma set_nth_overflow {A} (l : list A) i x : (length l <= i)%nat -> set_nth l i x = l.
Proof. revert i; induction l as [|h t IH]; intros [|i] H; simpl in *; auto; [lia|]. rewrite IH by lia. reflexivity. Qed.

Lemma best_wipe_cell k l i a :
  (forall g, nth i l CZero = CGen g ->
     exists j g', j <> i /\ nth j l CZero = CGen g' /\ gk g' = gk g /\ gts g < gts g') ->
  best k (set_nth l i CMarker) a = best k l a.
Proof.
  intros H. destruct (Nat.lt_ge_cases i (length l)) as [LT|GE]; [|rewrite set_nth_overflow by exact GE; reflexivity].
  destruct (nth_split l CZero LT) as (l1 & l2 & El & <-). remember (nth (length l1) l CZero) as c.
  subst l. rewrite set_nth_app. symmetry. apply best_drop. intros g ->.
  destruct (H g eq_refl) as (j & g' & NE & Ej & Hk). exists g'. split; [|exact Hk].
  (* the superseding cell is still there once cell i is wiped *)
  rewrite <- (nth_set_nth_other _ (length l1) j CMarker), set_nth_app in Ej by auto.
  apply nth_gen_In, in_app_or in Ej. apply in_or_app.
  destruct Ej as [?|[?|?]]; [auto|discriminate|auto].
Qed.

Theorem wipe_ok exts : forall c0,
  (forall i g, In i exts -> nth i c0 CZero = CGen g ->
     exists j g', ~ In j exts /\ nth j c0 CZero = CGen g' /\ gk g' = gk g /\ gts g < gts g') ->
  forall k, contents (wipe exts c0) k = contents c0 k.
Proof.
  induction exts as [|i r IH]; intros c0 Hsup k; cbn [wipe]; [reflexivity|].
  rewrite IH.
  - apply best_wipe_cell. intros g E.
    destruct (Hsup i g (or_introl eq_refl) E) as (j & g' & Hj & Ej).
    exists j, g'. split; [intros ->; apply Hj; left; reflexivity|exact Ej].
  - (* the superseding cells lie outside the extents: wiping cell i keeps them *)
    intros j g Hj Ej.
    assert (NE : i <> j).
    { intros <-. destruct (Nat.lt_ge_cases i (length c0)) as [LT|GE].
      - rewrite nth_set_nth_same in Ej by exact LT. discriminate.
      - rewrite nth_overflow in Ej by (rewrite set_nth_length; exact GE). discriminate. }
    rewrite nth_set_nth_other in Ej by exact NE.
    destruct (Hsup j g (or_intror Hj) Ej) as (j' & g' & Hj' & Ej' & Hk).
    exists j', g'. split; [intros H; apply Hj'; right; exact H|]. split; [|exact Hk].
    rewrite nth_set_nth_other; [exact Ej'|]. intros ->. apply Hj'. left; reflexivity.
Qed.

(* a batch of new records into free cells is admissible *)
Theorem write_batch_ok (t : txn) (c0 : list cell) :
  (forall i, In i (t_exts t) -> (i < length c0)%nat /\ forall g, nth i c0 CZero <> CGen g) ->
  (forall i c, In (i, c) (t_new t) -> In i (t_exts t) /\ c <> CJunk) ->
  txn_ok t c0.
Proof.
  intros Hfree Hnew. split; [intros i Hi; apply Hfree, Hi|]. split; [exact Hnew|].
  apply wipe_ok. intros i g Hi E. destruct (proj2 (Hfree i Hi) g E).
Qed.

(* retiring extents whose generations are each superseded by a strictly newer generation of the same
   key that lives outside the retired extents is admissible *)
Theorem retire_ok (exts : list nat) (c0 : list cell) :
  NoDup exts ->
  (forall i, In i exts -> (i < length c0)%nat) ->
  (forall i g, In i exts -> nth i c0 CZero = CGen g ->
     exists j g', ~ In j exts /\ nth j c0 CZero = CGen g' /\ gk g' = gk g /\ gts g < gts g') ->
  txn_ok (mktxn exts (markers exts)) c0.
Proof.
  intros _ Hlen Hsup. split; [exact Hlen|]. split; [|exact (wipe_ok exts c0 Hsup)].
  intros i c (Hi & ->)%in_markers. split; [exact Hi|discriminate].
Qed.

Lemma reach_trans s1 s2 s3 : reach s1 s2 -> reach s2 s3 -> reach s1 s3.
Proof. intros R12 R23. induction R23 as [|x y R IH ST]; [exact R12|exact (reach_step _ _ _ IH ST)]. Qed.

(* f is the logical contents of a quiescent state at or after s_ack *)
Definition committed (s_ack : pstate) (f : N -> option gen) : Prop :=
  exists s_i, reach s_ack s_i /\ ph s_i = Idle /\ forall k, contents (cells (durable (dv s_i))) k = f k.

(* the base is what the last quiescent state held *)
Lemma committed_before s_ack s : PInv s_ack -> ph s_ack = Idle -> reach s_ack s -> committed s_ack (before s).
Proof.
  intros (_ & HA) PA R. induction R as [|s2 s3 R IH ST].
  - rewrite PA in HA. destruct HA as (_ & _ & CE). exists s_ack. unfold before. rewrite CE. auto using reach_refl.
  - pose proof (reach_step _ _ _ R ST) as R3. destruct ST; unfold before in *; cbn [base] in *; [|exact IH..|].
    + eexists. split; [exact R|auto].
    + eexists. split; [exact R3|auto].
Qed.

(* the protocol steps still to go before the state is quiescent *)
Definition togo (p : phase) : nat :=
  match p with
  | Idle => 0 | ClearWritten _ => 1 | CellsDurable _ => 2 | CellsWritten _ => 3
  | ActiveDurable _ => 4 | ActiveWritten _ => 5
  end.

Lemma progress s : PInv s ->
  ph s = Idle \/
  exists s1, pstep s s1 /\ (togo (ph s1) < togo (ph s))%nat /\ after s1 = after s.
Proof.
  intros (_ & H). destruct s as [v p g c b]. destruct p as [|t|t|t|t|t]; [left; reflexivity|right..].
  all: eexists; (split; [constructor|]); (split; [cbn [ph togo]; lia|]); try reflexivity.
  (* the last fsync applies the clear: the cells stay those the transaction wrote *)
  cbn in H. destruct H as (P & _ & CE & _). unfold after, fsync. cbn [ph base dv durable].
  rewrite P. cbn [fold_left]. rewrite cells_apply_slot, CE. reflexivity.
Qed.

Lemma committed_from s_ack s f : reach s_ack s -> committed s f -> committed s_ack f.
Proof. intros R (s' & R' & H). exists s'. split; [exact (reach_trans _ _ _ R R')|exact H]. Qed.

(* the transaction in flight can be completed, and the state then reached holds its result *)
Lemma committed_after s : PInv s -> committed s (after s).
Proof.
  intros HI. remember (togo (ph s)) as n eqn:En. revert s En HI.
  induction n as [n IH] using lt_wf_ind. intros s -> HI.
  destruct (progress s HI) as [PH|(s1 & ST & LT & A)].
  - exists s. split; [apply reach_refl|]. split; [exact PH|]. intros k. unfold after.
    destruct HI as (_ & H). rewrite PH in *. destruct H as (_ & _ & ->). reflexivity.
  - rewrite <- A. apply (committed_from s s1); [eauto using reach|].
    exact (IH _ LT s1 eq_refl (pstep_PInv _ _ HI ST)).
Qed.

(* Once a quiescent state is reached (flush acknowledged), every crash image of every later state
   recovers to the contents of some quiescent state at or after that acknowledgement: nothing
   acknowledged is lost, no earlier state comes back. *)
Theorem ack_durable s_ack s d :
  PInv s_ack -> ph s_ack = Idle -> reach s_ack s -> crash_image (dv s) d ->
  exists s_i seen, reach s_ack s_i /\ ph s_i = Idle /\ recover d = Some seen /\
    forall k, contents seen k = contents (cells (durable (dv s_i))) k.
Proof.
  intros HA PA R CI.
  assert (HS : PInv s) by (eapply reach_PInv; eauto).
  destruct (crash_atomic s d HS CI) as (seen & RC & E).
  (* before and after are both contents of quiescent states at or after the acknowledgement *)
  assert (C : exists f, committed s_ack f /\ forall k, contents seen k = f k).
  { destruct E; eauto using committed_before, committed_from, committed_after. }
  destruct C as (f & (s_i & Ri & Pi & Ci) & E'). exists s_i, seen. repeat split; auto.
  intros k. rewrite Ci. apply E'.
Qed.

(* Recovery's own repair, the journal replay (C04), starts from a disk on which journal
   ACTIVE(exts) is selected in slot c and no junk lies outside the named extents *)
Definition replay_start (d : disk) (c : bool) (g : N) (exts : list nat) : Prop :=
  slot_of d c = SValid g (JActive exts) /\ older_or_invalid (slot_of d (negb c)) g /\
  junk_free (wipe exts (cells d)).

(* stage 1: marker writes issued, not yet synced.  stage 2: markers durable, clear issued. *)
Definition replay_stage1 (d : disk) (exts : list nat) : dev := mkdev d (marker_writes exts).
Definition replay_stage2 (d : disk) (c : bool) (g : N) (exts : list nat) : dev :=
  mkdev (mkdisk (s0 d) (s1 d) (wipe exts (cells d))) [WSlot (negb c) (SValid (g + 1) JClear)].
Definition replay_done (d : disk) (c : bool) (g : N) (exts : list nat) : disk :=
  apply_wr (mkdisk (s0 d) (s1 d) (wipe exts (cells d))) (WSlot (negb c) (SValid (g + 1) JClear)).

Lemma replay_start_jstate d c g exts :
  replay_start d c g exts <-> jstate d c g (JActive exts) /\ junk_free (wipe exts (cells d)).
Proof. rewrite jstate_active. unfold replay_start. tauto. Qed.

Lemma replay_start_crash {d c g exts ws d'} :
  replay_start d c g exts -> (forall i cl, In (i, cl) ws -> In i exts) -> crash_from d (cellws ws) d' ->
  jstate d' c g (JActive exts) /\ wipe exts (cells d') = wipe exts (cells d) /\
  junk_free (wipe exts (cells d)).
Proof.
  intros RS Hin CF. destruct (crash_from_cells exts ws d d' Hin CF) as (A & B & W).
  apply replay_start_jstate in RS. destruct RS as (S & J).
  split; [exact (jstate_same_slots A B S)|]. split; [exact W|exact J].
Qed.

Theorem replay_restartable d c g exts :
  replay_start d c g exts ->
  let seen := wipe exts (cells d) in
  recover d = Some seen /\
  (forall d', crash_image (replay_stage1 d exts) d' -> recover d' = Some seen) /\
  (forall d', crash_image (replay_stage2 d c g exts) d' -> recover d' = Some seen) /\
  recover (replay_done d c g exts) = Some seen /\
  (* the repair writes only cells the recovered contents do not own *)
  (forall i, In i exts -> (i < length (cells d))%nat -> nth i seen CZero = CMarker).
Proof.
  intros RS seen. destruct (proj1 (replay_start_jstate _ _ _ _) RS) as (S & J).
  (* whichever of the marker writes landed *)
  assert (M : forall d', crash_from d (marker_writes exts) d' ->
                jstate d' c g (JActive exts) /\ wipe exts (cells d') = seen).
  { intros d' CF. rewrite marker_writes_cellws in CF.
    destruct (replay_start_crash RS (fun i cl H => proj1 (in_markers _ _ _ H)) CF) as (S' & W & _). auto. }
  assert (S2 : forall d', crash_image (replay_stage2 d c g exts) d' -> recover d' = Some seen).
  { (* stage 2 starts from the image of stage 1 in which every marker landed *)
    intros d' CF. destruct (M _ (crash_from_all (marker_writes exts) d)) as (S' & W).
    rewrite fold_marker_writes in S', W.
    destruct (crash_slot_write S' CF W J eq_refl J); assumption. }
  split; [exact (recover_jstate S eq_refl J)|]. split; [|split; [exact S2|split]].
  - intros d' CI. destruct (M d' CI) as (S' & W). exact (recover_jstate S' W J).
  - apply S2. exact (crash_from_all (pending (replay_stage2 d c g exts)) _).
  - intros i. apply nth_wipe_in.
Qed.

(* Failures (C09).  A write that fails before reaching the device, and an fsync that fails,
   leave the device state (durable, pending) as it was: the set of crash images is unchanged, so
   every guarantee above still holds at that point.  A write that fails after reaching the device
   is an ordinary un-synced write. *)
Theorem failed_call_keeps_crash_images v d : crash_image v d <-> crash_image (mkdev (durable v) (pending v)) d.
Proof. destruct v; simpl. tauto. Qed.

(* The run-time scrub of a failed batch (C09).  A batch fails while its journal intent
   ACTIVE(exts) is durable in slot c (any failing write or fsync of the record writes).  Some of
   its cell writes may still be un-synced (`ws`, all inside the journaled extents); under the
   fail-stop model they stay pending and the next successful fsync makes them durable.  The scrub
   (cleanup_failed_allocations -> retire_extents) journals ACTIVE(exts) again -- next generation,
   other slot -- and then does exactly what the replay does: markers, fsync, clear, fsync. *)
Definition scrub_stage0 (d : disk) (ws : list (nat * cell)) : dev := mkdev d (cellws ws).
Definition scrub_stage1 (d : disk) (c : bool) (g : N) (exts : list nat) (ws : list (nat * cell)) : dev :=
  mkdev d (cellws ws ++ [WSlot (negb c) (SValid (g + 1) (JActive exts))]).
Definition scrub_synced (d : disk) (c : bool) (g : N) (exts : list nat) (ws : list (nat * cell)) : disk :=
  durable (fsync (scrub_stage1 d c g exts ws)).

(* From the failure to the end of the scrub, every crash image -- and the device as it stands at
   each fsync -- recovers the cells the batch found.  Once the new intent is durable the situation
   is the one recovery's replay starts from, with the same recovered cells: replay_restartable
   covers the markers, the clear and the end. *)
Theorem scrub_preserves_contents d c g exts ws :
  replay_start d c g exts -> (forall i cl, In (i, cl) ws -> In i exts) ->
  let seen := wipe exts (cells d) in
  let d1 := scrub_synced d c g exts ws in
  (forall d', crash_image (scrub_stage0 d ws) d' -> recover d' = Some seen) /\
  (forall d', crash_image (scrub_stage1 d c g exts ws) d' -> recover d' = Some seen) /\
  recover d1 = Some seen /\
  (forall d', crash_image (replay_stage1 d1 exts) d' -> recover d' = Some seen) /\
  (forall d', crash_image (replay_stage2 d1 (negb c) (g + 1) exts) d' -> recover d' = Some seen) /\
  recover (replay_done d1 (negb c) (g + 1) exts) = Some seen.
Proof.
  intros RS HIN seen d1.
  (* whatever became of the cell writes *)
  pose proof (fun dm => replay_start_crash (d' := dm) RS HIN) as ST0. fold seen in ST0.
  assert (RS1 : replay_start d1 (negb c) (g + 1) exts /\ wipe exts (cells d1) = seen).
  { unfold d1, scrub_synced, scrub_stage1, fsync. cbn [durable pending]. rewrite fold_left_app. cbn [fold_left].
    destruct (ST0 _ (crash_from_all _ d)) as (S & W & JF). rewrite cells_apply_slot.
    split; [|exact W]. apply replay_start_jstate. rewrite cells_apply_slot, W.
    split; [exact (jstate_applied _ S)|exact JF]. }
  destruct RS1 as (RS1 & W1).
  destruct (replay_restartable d1 (negb c) (g + 1) exts RS1) as (R0 & R1 & R2 & R3 & _).
  rewrite W1 in R0, R1, R2, R3. repeat split; try assumption.
  - intros d' CI. destruct (ST0 d' CI) as (S & W & JF). exact (recover_jstate S W JF).
  - intros d' CI. apply crash_from_app in CI. destruct CI as (dm & CA & CB).
    destruct (ST0 dm CA) as (S & W & JF).
    destruct (crash_slot_write S CB W JF W JF); assumption.
Qed.

(* C14, concurrent clauses: whatever the writers do between the steps of a range scan, its result
   is strictly ascending inside the bounds and the limit, holds every key that stayed untouched and
   visible throughout, only values that were really written to their keys, and no key that was
   absent throughout. *)
From Coq Require Import List NArith Bool Lia Arith.
From Feox Require Import Model.Sched Model.Scan Proofs.ListFacts Proofs.AssocProofs.
Import ListNotations.
Local Open Scope N_scope.

Definition keys {A} (l : list (N * A)) : list N := map fst l.

Lemma aget_in {A} k (m : list (N * A)) : aget k m <> None <-> In k (keys m).
Proof.
  induction m as [|[k' a] t IH]; cbn; [intuition congruence|].
  destruct (N.eqb_spec k' k) as [->|E]; [|rewrite IH]; intuition congruence.
Qed.

Lemma least_spec p m :
  match least p m with
  | Some x => p x = true /\ In x (keys m) /\ forall y, In y (keys m) -> p y = true -> x <= y
  | None => forall y, In y (keys m) -> p y = false
  end.
Proof.
  induction m as [|[k n] t IH]; cbn; [intros y []|].
  destruct (p k) eqn:Pk, (least p t) as [r|].
  - destruct IH as (A & B & C). destruct (N.min_spec k r) as [[Hlt ->]|[Hle ->]]; (split; [|split]; auto).
    + intros y [<-|Hy] Py; [lia | specialize (C y Hy Py); lia].
    + intros y [<-|Hy] Py; [lia | auto].
  - split; [|split]; auto. intros y [<-|Hy] Py; [lia|]. rewrite (IH y Hy) in Py. discriminate.
  - destruct IH as (A & B & C). split; [|split]; auto. intros y [<-|Hy] Py; [congruence | auto].
  - intros y [<-|Hy]; auto.
Qed.

Lemma seek_spec p w :
  (exists k n, seek p w = PAt k n /\ p k = true /\ aget k (w_idx w) = Some n /\
     forall y, aget y (w_idx w) <> None -> p y = true -> k <= y) \/
  (seek p w = PEnd /\ forall y, aget y (w_idx w) <> None -> p y = false).
Proof.
  unfold seek. pose proof (least_spec p (w_idx w)) as L.
  destruct (least p (w_idx w)) as [x|]; setoid_rewrite <- aget_in in L; [|auto].
  destruct L as (A & B & C). destruct (aget x (w_idx w)) as [n|] eqn:G; [|congruence].
  left. exists x, n. auto.
Qed.

Lemma ascending_app l k v : ascending l = true -> (forall k', In k' (keys l) -> k' < k) -> ascending (l ++ [(k, v)]) = true.
Proof.
  induction l as [|[k1 v1] t IH]; intros Ha Hb; [reflexivity|].
  cbn [app]. destruct t as [|[k2 v2] t2].
  - cbn. rewrite andb_true_r. apply N.ltb_lt, Hb. now left.
  - cbn [app ascending] in *. apply andb_true_iff in Ha. destruct Ha as [H1 H2].
    apply andb_true_iff. split; [exact H1|]. apply IH; [exact H2|]. intros k' Hk. apply Hb. now right.
Qed.

Lemma keys_app {A} (l l' : list (N * A)) : keys (l ++ l') = keys l ++ keys l'.
Proof. unfold keys. apply map_app. Qed.

Lemma in_keys_snoc {A} k' (l : list (N * A)) k v : In k' (keys (l ++ [(k, v)])) -> In k' (keys l) \/ k' = k.
Proof. rewrite keys_app, in_app_iff. cbn. intuition. Qed.

Section Bounds.
Variables (a b : N) (limit : nat).

(* what the cursor [p] knows about the output [o]; [own] is the ghost map node -> key *)
Definition pos_ok (own : list (N * N)) (p : pos) (o : list (N * N)) : Prop :=
  match p with
  | PBegin => o = []
  | PAt k n => a <= k /\ aget n own = Some k /\ forall k', In k' (keys o) -> k' < k
  | PLoaded k => a <= k /\ forall k', In k' (keys o) -> k' <= k
  | PEnd => True
  end.

Record WInv (w : sworld) : Prop := {
  wi_asc : ascending (w_out w) = true;
  wi_in : forall k, In k (keys (w_out w)) -> a <= k /\ k <= b;
  wi_len : (length (w_out w) <= limit)%nat;
  wi_pos : pos_ok (w_owner w) (w_pos w) (w_out w);
  wi_idx : forall k n, aget k (w_idx w) = Some n -> aget n (w_owner w) = Some k;
  wi_own : forall n k, aget n (w_owner w) = Some k -> n < w_nn w;
  wi_slot : forall n c, aget n (w_slot w) = Some c -> exists k, aget n (w_owner w) = Some k /\ In (k, c_val c) (w_hist w);
  wi_out : forall k v, In (k, v) (w_out w) -> In (k, v) (w_hist w)
}.

Lemma winit_inv : WInv winit.
Proof. split; cbn; intros; try discriminate; try contradiction; try lia; reflexivity. Qed.

Lemma pos_ok_owner own own' p o :
  (forall n k, aget n own = Some k -> aget n own' = Some k) -> pos_ok own p o -> pos_ok own' p o.
Proof.
  intros Ho. destruct p; cbn; intuition.
Qed.

Lemma WInv_set_pos w p : WInv w -> pos_ok (w_owner w) p (w_out w) -> WInv (set_scan w p (w_out w)).
Proof. intros [] Hp. split; assumption. Qed.

Lemma wstep_inv w e : WInv w -> WInv (wstep a b limit w e).
Proof.
  intros Hinv. pose proof Hinv as [Hasc Hin Hlen Hpos Hidx Hown Hslot Hout].
  destruct e as [k v vis|k|]; cbn [wstep].
  - destruct (aget k (w_idx w)) as [n|] eqn:G.
    + split; cbn; auto.
      intros n' c Hc. destruct (aget_aset_some _ _ _ _ _ Hc) as [[-> ->]|[_ E]]; [eauto|].
      destruct (Hslot n' c E) as (k' & A & B). eauto.
    + (* the new node's identity is not yet owned *)
      assert (Hkeep : forall n k', aget n (w_owner w) = Some k' -> aget n (aset (w_nn w) k (w_owner w)) = Some k').
      { intros n k' H. rewrite aget_aset_other; [exact H|]. intros ->. pose proof (Hown _ _ H). lia. }
      split; cbn; auto.
      * exact (pos_ok_owner _ _ _ _ Hkeep Hpos).
      * intros k' n H. destruct (aget_aset_some _ _ _ _ _ H) as [[-> ->]|[_ E]]; auto using aget_aset_same.
      * intros n k' H. destruct (aget_aset_some _ _ _ _ _ H) as [[-> _]|[_ E]]; [|pose proof (Hown n k' E)]; lia.
      * intros n c Hc. destruct (aget_aset_some _ _ _ _ _ Hc) as [[-> ->]|[_ E]]; [eauto using aget_aset_same|].
        destruct (Hslot n c E) as (k' & A & B). eauto.
  - split; cbn; try assumption.
    intros k' n H. exact (Hidx k' n (proj1 (aget_adel_some _ _ _ _ H))).
  - destruct (w_pos w) as [|k n|k|]; cbn in Hpos.
    + destruct (Nat.eqb limit 0); apply WInv_set_pos; try exact Hinv; [exact I|].
      destruct (seek_spec (fun k => a <=? k) w) as [(k & n & -> & A%N.leb_le & B & _)|[-> _]]; [|exact I].
      split; [exact A|]. split; [exact (Hidx k n B)|]. rewrite Hpos. intros k' [].
    + destruct Hpos as (Pa & Po & Pb).
      destruct (Nat.leb limit (length (w_out w)) || (b <? k)) eqn:Hstop; [apply WInv_set_pos; [exact Hinv | exact I]|].
      apply orb_false_iff in Hstop. destruct Hstop as [Hl Hb]. apply Nat.leb_gt in Hl. apply N.ltb_ge in Hb.
      assert (Hskip : WInv (set_scan w (PLoaded k) (w_out w))).
      { apply WInv_set_pos; [exact Hinv|]. split; auto using N.lt_le_incl. }
      destruct (aget n (w_slot w)) as [c|] eqn:Hc; [|exact Hskip].
      destruct (c_vis c); [|exact Hskip].
      split; cbn; try assumption.
      * apply ascending_app; assumption.
      * intros k' Hk. destruct (in_keys_snoc _ _ _ _ Hk) as [H| ->]; [auto | lia].
      * rewrite app_length. cbn. lia.
      * split; [exact Pa|]. intros k' Hk. destruct (in_keys_snoc _ _ _ _ Hk) as [H| ->]; [specialize (Pb k' H)|]; lia.
      * intros k' v' H. apply in_app_or in H. destruct H as [H|[[= <- <-]|[]]]; [auto|].
        destruct (Hslot n c Hc) as (k2 & A & B). congruence.
    + destruct Hpos as (Pa & Pb). apply WInv_set_pos; [exact Hinv|].
      destruct (seek_spec (fun k' => k <? k') w) as [(k1 & n1 & -> & A%N.ltb_lt & B & _)|[-> _]]; [|exact I].
      split; [lia|]. split; [exact (Hidx k1 n1 B)|]. intros k' Hk. specialize (Pb k' Hk). lia.
    + exact Hinv.
Qed.

Lemma wrun_inv es w : WInv w -> WInv (wrun a b limit w es).
Proof. apply fold_left_inv. exact wstep_inv. Qed.

Lemma writers_keep_scan es w : forallb (fun e => negb (is_scan e)) es = true ->
  w_pos (wrun a b limit w es) = w_pos w /\ w_out (wrun a b limit w es) = w_out w.
Proof.
  intros Hes. refine (fold_left_inv_guarded _ _ (fun w' => w_pos w' = w_pos w /\ w_out w' = w_out w) _ es w Hes (conj eq_refl eq_refl)).
  intros w1 e He H. destruct e as [k v vis|k|]; [cbn [wstep]; destruct (aget k (w_idx w1))| |discriminate]; exact H.
Qed.

(* The result of a scan, finished or not, under any interference *)
Theorem scan_result_sorted_bounded_limited es :
  let w := wrun a b limit winit es in
  ascending (w_out w) = true /\ (forall k, In k (keys (w_out w)) -> a <= k /\ k <= b) /\ (length (w_out w) <= limit)%nat.
Proof. destruct (wrun_inv es winit winit_inv). auto. Qed.

(* Every returned value was written to its key *)
Theorem scan_values_are_genuine es k v :
  In (k, v) (w_out (wrun a b limit winit es)) -> In (k, v) (w_hist (wrun a b limit winit es)).
Proof. exact (wi_out _ (wrun_inv es winit winit_inv) k v). Qed.

(* what the cursor has established about a key [k0] that stays linked at node [n0] with the
   visible value [v0] *)
Definition found (k0 n0 v0 : N) (p : pos) (o : list (N * N)) : Prop :=
  match p with
  | PBegin => True
  | PAt k n => (a <= k0 -> k0 < k -> In (k0, v0) o) /\ (k = k0 -> n = n0)
  | PLoaded k => a <= k0 -> k0 <= k -> In (k0, v0) o
  | PEnd => (length o < limit)%nat -> a <= k0 -> k0 <= b -> In (k0, v0) o
  end.

Definition stable_ok (k0 n0 v0 : N) (w : sworld) : Prop :=
  aget k0 (w_idx w) = Some n0 /\ aget n0 (w_slot w) = Some (mkcell v0 true) /\
  found k0 n0 v0 (w_pos w) (w_out w).

Lemma stable_set_scan k0 n0 v0 w p o :
  stable_ok k0 n0 v0 w -> found k0 n0 v0 p o -> stable_ok k0 n0 v0 (set_scan w p o).
Proof. intros (Hi & Hs & _) Hf. exact (conj Hi (conj Hs Hf)). Qed.

Lemma stable_step k0 n0 v0 w e : WInv w -> touches k0 e = false -> stable_ok k0 n0 v0 w -> stable_ok k0 n0 v0 (wstep a b limit w e).
Proof.
  intros Hinv Ht S. pose proof S as (Hi & Hs & Hp). destruct e as [k v vis|k|]; cbn [touches] in Ht.
  - apply N.eqb_neq in Ht. cbn [wstep]. destruct (aget k (w_idx w)) as [n|] eqn:G.
    + assert (n <> n0). { intros ->. pose proof (wi_idx w Hinv k n0 G). pose proof (wi_idx w Hinv k0 n0 Hi). congruence. }
      unfold stable_ok. cbn. rewrite aget_aset_other by congruence. auto.
    + assert (w_nn w <> n0). { pose proof (wi_own w Hinv n0 k0 (wi_idx w Hinv k0 n0 Hi)). lia. }
      unfold stable_ok. cbn. rewrite !aget_aset_other by congruence. auto.
  - apply N.eqb_neq in Ht. unfold stable_ok. cbn. rewrite aget_adel_other by congruence. auto.
  - cbn [wstep]. pose proof (wi_pos w Hinv) as P.
    assert (Hpres : aget k0 (w_idx w) <> None) by congruence.
    destruct (w_pos w) as [|k n|k|]; cbn in P, Hp.
    + destruct (Nat.eqb limit 0) eqn:L0; apply stable_set_scan; try exact S.
      * apply Nat.eqb_eq in L0. intros Hl. lia.
      * destruct (seek_spec (fun k => a <=? k) w) as [(k & n & -> & _ & B & C)|[-> Sk]].
        -- split; [|intros ->; congruence].
           intros Ha Hlt. specialize (C k0 Hpres ltac:(apply N.leb_le; exact Ha)). lia.
        -- intros _ Ha _. pose proof (Sk k0 Hpres) as F. cbn in F. apply N.leb_gt in F. lia.
    + destruct Hp as [Hbelow Hnode].
      destruct (Nat.leb limit (length (w_out w)) || (b <? k)) eqn:Hstop.
      * apply stable_set_scan; [exact S|]. intros Hl Ha Hb0.
        apply orb_true_iff in Hstop. destruct Hstop as [H|H]; [apply Nat.leb_le in H; lia|].
        apply N.ltb_lt in H. apply Hbelow; [exact Ha | lia].
      * destruct (N.eq_dec k k0) as [->|Hne].
        -- rewrite (Hnode eq_refl), Hs. cbn [c_vis c_val]. apply stable_set_scan; [exact S|].
           intros _ _. apply in_or_app. right. left. reflexivity.
        -- assert (Hold : a <= k0 -> k0 <= k -> In (k0, v0) (w_out w)) by (intros Ha Hle; apply Hbelow; [exact Ha | lia]).
           destruct (aget n (w_slot w)) as [c|]; [destruct (c_vis c)|]; (apply stable_set_scan; [exact S|]);
             intros Ha Hle; try (apply in_or_app; left); exact (Hold Ha Hle).
    + apply stable_set_scan; [exact S|].
      destruct (seek_spec (fun k' => k <? k') w) as [(k1 & n1 & -> & A%N.ltb_lt & B & C)|[-> Sk]].
      * split; [|intros ->; congruence].
        intros Ha Hlt. apply Hp; [exact Ha|]. destruct (N.le_gt_cases k0 k) as [H|H]; [exact H|].
        specialize (C k0 Hpres ltac:(apply N.ltb_lt; lia)). lia.
      * intros _ Ha _. apply Hp; [exact Ha|]. pose proof (Sk k0 Hpres) as F. cbn in F. apply N.ltb_ge in F. exact F.
    + exact S.
Qed.

(* A key inside the bounds that stays linked, untouched and visible from before the scan's
   first step is in the result of the finished scan, with its value -- unless the limit cut the
   scan short -- whatever happens to the other keys meanwhile *)
Theorem stable_key_is_returned pre post k0 n0 v0 :
  forallb (fun e => negb (is_scan e)) pre = true ->
  let w1 := wrun a b limit winit pre in
  aget k0 (w_idx w1) = Some n0 -> aget n0 (w_slot w1) = Some (mkcell v0 true) ->
  forallb (fun e => negb (touches k0 e)) post = true ->
  let w2 := wrun a b limit w1 post in
  w_pos w2 = PEnd -> (length (w_out w2) < limit)%nat -> a <= k0 -> k0 <= b ->
  In (k0, v0) (w_out w2).
Proof.
  intros Hpre w1 Hi Hs Hpost w2 Hend Hl Ha Hb.
  assert (S1 : stable_ok k0 n0 v0 w1).
  { split; [exact Hi|]. split; [exact Hs|]. subst w1. rewrite (proj1 (writers_keep_scan pre winit Hpre)). exact I. }
  assert (S2 : WInv w2 /\ stable_ok k0 n0 v0 w2).
  { apply (fold_left_inv_guarded (wstep a b limit) _ (fun w => WInv w /\ stable_ok k0 n0 v0 w)) with (2 := Hpost).
    - intros w e He%negb_true_iff [Iw Sw]. auto using wstep_inv, stable_step.
    - split; [exact (wrun_inv pre winit winit_inv) | exact S1]. }
  destruct S2 as (_ & _ & _ & Hp). rewrite Hend in Hp. exact (Hp Hl Ha Hb).
Qed.

Definition absent_ok (k0 : N) (w : sworld) : Prop :=
  aget k0 (w_idx w) = None /\ ~ In k0 (keys (w_out w)) /\
  match w_pos w with PAt k _ | PLoaded k => k <> k0 | _ => True end.

Lemma absent_step k0 w e : touches k0 e = false -> absent_ok k0 w -> absent_ok k0 (wstep a b limit w e).
Proof.
  intros Ht (A & B & C). destruct e as [k v vis|k|]; cbn [touches] in Ht.
  - apply N.eqb_neq in Ht. cbn [wstep]. destruct (aget k (w_idx w)); unfold absent_ok; cbn;
      rewrite ?aget_aset_other by congruence; auto.
  - apply N.eqb_neq in Ht. unfold absent_ok. cbn. rewrite aget_adel_other by congruence. auto.
  - cbn [wstep]. destruct (w_pos w) as [|k n|k|] eqn:Hp.
    + destruct (Nat.eqb limit 0); (split; [exact A|]; split; [exact B|]); cbn; [exact I|].
      destruct (seek_spec (fun k => a <=? k) w) as [(k & n & -> & _ & G & _)|[-> _]]; [|exact I].
      intros ->. congruence.
    + destruct (Nat.leb limit (length (w_out w)) || (b <? k)); [split; [exact A|]; split; [exact B | exact I]|].
      destruct (aget n (w_slot w)) as [c|]; [destruct (c_vis c)|]; (split; [exact A|]; split; [|exact C]); try exact B.
      cbn. intros H. destruct (in_keys_snoc _ _ _ _ H) as [H'|H']; [exact (B H') | exact (C (eq_sym H'))].
    + split; [exact A|]. split; [exact B|]. cbn.
      destruct (seek_spec (fun k' => k <? k') w) as [(k1 & n1 & -> & _ & G & _)|[-> _]]; [|exact I].
      intros ->. congruence.
    + split; [exact A|]. split; [exact B|]. rewrite Hp. exact I.
Qed.

(* A key that is not linked when the scan starts and is not written while it runs is not
   in the result (in particular a key deleted beforehand) *)
Theorem absent_key_is_not_returned pre post k0 :
  forallb (fun e => negb (is_scan e)) pre = true ->
  let w1 := wrun a b limit winit pre in
  aget k0 (w_idx w1) = None ->
  forallb (fun e => negb (touches k0 e)) post = true ->
  ~ In k0 (keys (w_out (wrun a b limit w1 post))).
Proof.
  intros Hpre w1 Hi Hpost.
  refine (proj1 (proj2 (fold_left_inv_guarded (wstep a b limit) _ (absent_ok k0) _ post w1 Hpost _))).
  - intros w e He. apply negb_true_iff in He. exact (absent_step k0 w e He).
  - destruct (writers_keep_scan pre winit Hpre) as [P O]. fold w1 in P, O.
    split; [exact Hi|]. rewrite P, O. split; [intros []|exact I].
Qed.

End Bounds.

(* The two permitted deviations from the sequential spec.  A write answered OlderTimestamp although
   the spec would have accepted it is always justified by an accepted delete of the same key with
   an equal or newer timestamp that committed earlier (so it was invoked before the rejection).  A
   compare-and-swap answered "no swap" although the value now equals the expected one is
   answered so only when the key was modified while the call ran. *)
From Coq Require Import List NArith Bool Lia.
From Feox Require Import Model.Sched Proofs.AssocProofs Proofs.SetNthFacts Proofs.SchedProofs.
Import ListNotations.
Local Open Scope N_scope.

(* the part of the shared state the invariants talk about: all but the clocks *)
Definition core (s : shared) := (tbl s, retired s, succ s, nid s, owner s, ver s).

Lemma core_fields s t r u n o v :
  core s = (t, r, u, n, o, v) ->
  tbl s = t /\ retired s = r /\ succ s = u /\ nid s = n /\ owner s = o /\ ver s = v.
Proof. intros [= <- <- <- <- <- <-]. repeat split. Qed.

Lemma core_observe s k ts ex : core (observe s k ts ex) = core s.
Proof. unfold observe. destruct ex; reflexivity. Qed.
Lemma core_draw s k : core (snd (draw s k)) = core s.
Proof. reflexivity. Qed.
Lemma draw_core s k t s1 : draw s k = (t, s1) -> core s1 = core s.
Proof. intros H. rewrite <- (core_draw s k), H. reflexivity. Qed.
Lemma core_resolve s k tso ts ex s' : resolve s k tso = (ts, ex, s') -> core s' = core s.
Proof.
  unfold resolve. destruct tso as [t|]; [intros [= _ _ <-]; reflexivity|].
  destruct (draw s k) as [t s1] eqn:Hd. intros [= _ _ <-]. exact (draw_core _ _ _ _ Hd).
Qed.

Lemma core_publish_new s k v ts ex :
  core (publish_new s k v ts ex) =
  (aset k (mkgen (nid s) v ts) (tbl s), retired s, succ s, nid s + 1,
   aset (nid s) k (owner s), aset k (nget k (ver s) + 1) (ver s)).
Proof. unfold publish_new. rewrite core_observe. reflexivity. Qed.

Lemma core_publish_replace s k e v ts ex :
  core (publish_replace s k e v ts ex) =
  (aset k (mkgen (nid s) v ts) (tbl s), retired s, aset (g_id e) (nid s) (succ s), nid s + 1,
   aset (nid s) k (owner s), aset k (nget k (ver s) + 1) (ver s)).
Proof. unfold publish_replace. rewrite core_observe. reflexivity. Qed.

Lemma core_retire_remove s k e ts ex :
  core (retire_remove s k e ts ex) =
  (adel k (tbl s), aset (g_id e) ts (retired s), succ s, nid s, owner s,
   aset k (nget k (ver s) + 1) (ver s)).
Proof. unfold retire_remove. rewrite core_observe. reflexivity. Qed.

(* what a parked call carries: its timestamp, and the generations whose retirement timestamp it
   may still consult *)
Definition op_ts (o : op) : option N :=
  match o with
  | OGet _ | OIfAbsent _ _ => None
  | OUpsert _ _ t | ODelete _ t | OCas _ _ _ t | OIncr _ _ t | OPatch _ _ t => t
  end.
Definition explicit_pos (o : op) : Prop := match op_ts o with Some t => 0 < t | None => True end.

Definition pc_ts (p : pc) : option N :=
  match p with
  | PStart | PNTop _ => None
  | PUTop ts _ | PUGuard ts _ _ | PUIns ts _ | PDGuard ts _ | PCGuard ts _ _ _
  | PNCreate _ ts _ | PNGuard _ _ _ ts _ | PPTop ts _ _ | PPGuard ts _ _ _ _ => Some ts
  end.

Definition olist (o : option gen) : list gen := match o with Some g => [g] | None => [] end.

Definition pc_held (p : pc) : list gen :=
  match p with
  | PUGuard _ _ g | PNGuard g _ _ _ _ | PPGuard _ _ g _ _ => [g]
  | PNTop obs | PNCreate obs _ _ | PPTop _ _ obs => olist obs
  | _ => []
  end.

(* where the timestamp of a step comes from: the parked one, the call's explicit one, or a fresh
   draw; all are positive, explicit ones by assumption on the programs, drawn ones being >= WALL *)
Definition ts_src (o : op) (p : pc) (t : N) : Prop := pc_ts p = Some t \/ op_ts o = Some t \/ WALL <= t.

Definition pc_pos (p : pc) : Prop := match pc_ts p with Some t => 0 < t | None => True end.

Lemma ts_src_pos o p t : explicit_pos o -> pc_pos p -> ts_src o p t -> 0 < t.
Proof.
  unfold explicit_pos, pc_pos. intros Ho Hp [H|[H|H]]; [rewrite H in Hp | rewrite H in Ho |]; trivial.
  apply (N.lt_le_trans _ WALL); [reflexivity | exact H].
Qed.

Lemma draw_ts s k t s1 : draw s k = (t, s1) -> WALL <= t.
Proof. unfold draw. intros [= <- _]. apply N.le_max_l. Qed.

Lemma resolve_ts s k tso ts ex s1 : resolve s k tso = (ts, ex, s1) -> tso = Some ts \/ WALL <= ts.
Proof.
  unfold resolve. destruct tso as [t|]; [intros [= <- _ _]; auto|].
  destruct (draw s k) as [t s2] eqn:Hd. intros [= <- _ _]. right. exact (draw_ts _ _ _ _ Hd).
Qed.

(* The second permitted deviation rests on the key's modification counter (ghost `ver`,
   bumped by every accepted insert / replace / delete of the key).  A parked compare-and-swap
   remembers the counter it saw; while the counter has not moved the table still holds the
   generation it read. *)
Definition kver (s : shared) (k : N) : N := nget k (ver s).

Definition pc_cas (s : shared) (o : op) (p : pc) : Prop :=
  match o, p with
  | OCas k _ _ _, PCGuard _ _ g v0 => v0 <= kver s k /\ (kver s k = v0 -> aget k (tbl s) = Some g)
  | _, _ => True
  end.

Lemma pc_cas_start s o : pc_cas s o PStart.
Proof. destruct o; exact I. Qed.

(* A second reading of opstep, for the two justifications: which of five things a step does to the
   core (nothing, with or without a commit; replace; insert; retire), and what a parked call
   takes along: a timestamp that comes from the call, and held generations that were entries of
   its key.  A flagged OlderTimestamp is decided by the retirement timestamp of a held one. *)
Inductive shape (s : shared) (o : op) (p : pc) : shared -> pc + resp -> option commit -> Prop :=
| sh_goto s1 p' :
    core s1 = core s ->
    match pc_ts p' with Some t => ts_src o p t | None => True end ->
    (forall g, In g (pc_held p') -> In g (pc_held p) \/ aget (key_of o) (tbl s) = Some g) ->
    pc_cas s o p' ->
    shape s o p s1 (inl p') None
| sh_done s1 ts ex r dev :
    core s1 = core s ->
    (* a flagged OlderTimestamp: the retirement timestamp of a held generation is not below *)
    (dev = true -> r = ROlder ->
     ts_src o p ts /\ (0 < ts -> exists g, In g (pc_held p) /\ ts <= rt s (g_id g))) ->
    shape s o p s1 (inr r) (Some (mkc o ts ex r dev))
| sh_replace k e v ts ex r :
    key_of o = k -> aget k (tbl s) = Some e ->
    shape s o p (publish_replace s k e v ts ex) (inr r) (Some (mkc o ts ex r false))
| sh_new k s1 v ts ex r :
    key_of o = k -> core s1 = core s ->
    shape s o p (publish_new s1 k v ts ex) (inr r) (Some (mkc o ts ex r false))
| sh_retire k t e ts ex :
    o = ODelete k t -> aget k (tbl s) = Some e ->
    shape s o p (retire_remove s k e ts ex) (inr RUnit) (Some (mkc o ts ex RUnit false)).

(* the leaves of opstep: an answer that is no flagged OlderTimestamp, and a move that takes the
   timestamp and the held generations along *)
Local Ltac answers := apply sh_done; [reflexivity | intros ? ?; congruence].
Local Ltac moves :=
  apply sh_goto;
  [ reflexivity
  | cbn [pc_ts]; unfold ts_src; cbn [pc_ts]; auto
  | cbn [pc_held olist In key_of]; intuition (subst; auto)
  | exact I ].

Lemma start_shape s o p s' r c : opstep s o PStart = (s', r, c) -> shape s o p s' r c.
Proof.
  intros H.
  assert (Hres : forall tso ts ex s1 p', resolve s (key_of o) tso = (ts, ex, s1) ->
            tso = op_ts o -> pc_ts p' = Some ts -> pc_held p' = [] -> pc_cas s o p' ->
            shape s o p s1 (inl p') None).
  { intros tso ts ex s1 p' Hr Ho Ht Hh Hc. apply sh_goto; trivial.
    - exact (core_resolve _ _ _ _ _ _ Hr).
    - rewrite Ht. destruct (resolve_ts _ _ _ _ _ _ Hr) as [E|E]; unfold ts_src; [rewrite <- Ho|]; auto.
    - rewrite Hh. intros g []. }
  destruct o as [k|k v tso|k tso|k e n tso|k d tso|k v|k pj tso];
    cbn [opstep key_of] in *; unfold done, goto in H.
  - destruct (aget k (tbl s)); outcome H; answers.
  - destruct (resolve s k tso) as [[ts ex] s1] eqn:Hr. outcome H. eapply Hres; eauto; exact I.
  - destruct (resolve s k tso) as [[ts ex] s1] eqn:Hr. outcome H. eapply Hres; eauto; exact I.
  - destruct (aget k (tbl s)) as [g|] eqn:Hg; [destruct (val_eqb (g_val g) e)|]; [ | outcome H; answers .. ].
    destruct (resolve s k tso) as [[ts ex] s1] eqn:Hr. outcome H.
    eapply Hres; [exact Hr | reflexivity .. |]. split; [apply N.le_refl | intros _; exact Hg].
  - outcome H. apply sh_goto; [reflexivity | exact I | intros g [] | exact I].
  - destruct (aget k (tbl s)); [outcome H; answers|].
    destruct (draw s k) as [t s1] eqn:Hd. outcome H.
    apply sh_new; trivial. exact (draw_core _ _ _ _ Hd).
  - destruct (resolve s k tso) as [[ts ex] s1] eqn:Hr. outcome H. eapply Hres; eauto; exact I.
Qed.

Lemma andb_leb b x y : b && (x <=? y) = true -> x <= y.
Proof. intros H. apply andb_true_iff in H. apply N.leb_le. exact (proj2 H). Qed.

Lemma opstep_shape s o p s' r c : opstep s o p = (s', r, c) -> shape s o p s' r c.
Proof.
  intros H. destruct (own_pc o p) eqn:Hown.
  2:{ rewrite (opstep_start _ _ _ Hown) in H. exact (start_shape _ _ _ _ _ _ H). }
  (* a refusal decided by the retirement timestamp of the held generation g *)
  assert (Hret : forall ts ex dev g, In g (pc_held p) -> pc_ts p = Some ts -> ts <= rt s (g_id g) ->
            shape s o p s (inr ROlder) (Some (mkc o ts ex ROlder dev))).
  { intros ts ex dev g Hin Hts Hle. apply sh_done; [reflexivity|]. intros _ _.
    split; [left; exact Hts | eauto]. }
  destruct o as [k|k v tso|k tso|k e n tso|k d tso|k v|k pj tso], p; try discriminate Hown; clear Hown;
    cbn [opstep key_of] in *; unfold done, goto in H;
    destruct (aget k (tbl s)) as [e0|] eqn:Hg.
  - (* PUTop *) destruct (ts <=? g_ts e0); outcome H; [answers | moves].
  - outcome H. moves.
  - (* PUGuard *)
    destruct (negb (same e0 g) && (ts <=? rt s (g_id g))) eqn:Hd; [|destruct (ts <=? g_ts e0)]; outcome H.
    + eapply Hret; cbn; eauto using andb_leb.
    + answers.
    + apply sh_replace; trivial.
  - destruct (ts <=? rt s (g_id g)) eqn:Hd; outcome H; [|moves].
    apply N.leb_le in Hd. eapply Hret; cbn; eauto.
  - (* PUIns *) outcome H. moves.
  - outcome H. apply sh_new; trivial.
  - (* PDGuard *)
    destruct (ts <=? g_ts e0); outcome H; [answers | eapply sh_retire; trivial].
  - outcome H. answers.
  - (* PCGuard *)
    destruct (negb (same e0 g)); [|destruct (ts <=? g_ts e0)]; outcome H;
      [answers | answers | apply sh_replace; trivial].
  - outcome H. answers.
  - (* PNTop, the key is present *)
    destruct tso as [t|].
    + destruct (t <=? g_ts e0); [|destruct (g_val e0)]; outcome H; try answers.
      destruct obs; moves.
    + destruct (g_val e0); [ outcome H; answers .. | ].
      destruct (draw s k) as [t s1] eqn:Hd. outcome H.
      apply sh_goto; [exact (draw_core _ _ _ _ Hd) | right; right; exact (draw_ts _ _ _ _ Hd) | | exact I].
      destruct obs; cbn; intuition (subst; auto).
  - (* PNTop, the key is absent *)
    set (ra := match obs with Some r0 => rt s (g_id r0) | None => 0 end) in H.
    destruct tso as [t|].
    + destruct (t <=? ra) eqn:Hle; outcome H.
      * apply sh_done; [reflexivity|]. intros _ _. split; [right; left; reflexivity|].
        apply N.leb_le in Hle. destruct obs; [cbn; eauto | lia].
      * moves.
    + destruct (draw s k) as [t s1] eqn:Hd. pose proof (draw_ts _ _ _ _ Hd).
      destruct (N.max t (ra + 1) <=? ra) eqn:Hle; [apply N.leb_le in Hle; lia|]. outcome H.
      apply sh_goto; [exact (draw_core _ _ _ _ Hd) | right; right; cbn; lia | cbn; auto | exact I].
  - (* PNCreate *) outcome H. moves.
  - outcome H. apply sh_new; trivial.
  - (* PNGuard *)
    destruct (negb (same e0 g)); [destruct (ex && (ts <=? rt s (g_id root))) eqn:Hd | destruct (ts <=? g_ts e0)]; outcome H.
    + eapply Hret; cbn; eauto using andb_leb.
    + moves.
    + answers.
    + apply sh_replace; trivial.
  - destruct (ex && (ts <=? rt s (g_id root))) eqn:Hd; outcome H; [|moves].
    eapply Hret; cbn; eauto using andb_leb.
  - (* PPTop *)
    destruct (negb (same (match obs with Some x => x | None => e0 end) e0) &&
              (ts <=? rt s (g_id (match obs with Some x => x | None => e0 end)))) eqn:Hd;
      [|destruct (ts <=? g_ts e0); [|destruct (g_val e0)]]; outcome H; try answers.
    + destruct obs as [ob|].
      * eapply Hret; cbn; eauto using andb_leb.
      * unfold same in Hd. rewrite N.eqb_refl in Hd. discriminate Hd.
    + destruct obs; moves.
  - outcome H. answers.
  - (* PPGuard *)
    destruct (negb (same e0 r0)); [|destruct (ts <=? g_ts e0)]; outcome H;
      [moves | answers | apply sh_replace; trivial].
  - outcome H. moves.
Qed.

(* ownership: every generation belongs to one key, successors stay with the key *)
Definition own (s : shared) (k : N) (g : gen) : Prop := aget (g_id g) (owner s) = Some k.

Record SInv (s : shared) : Prop := {
  si_tbl : forall k g, aget k (tbl s) = Some g -> aget (g_id g) (owner s) = Some k /\ g_id g < nid s;
  si_own : forall id k, aget id (owner s) = Some k -> id < nid s;
  si_succ : forall id id', aget id (succ s) = Some id' ->
            exists k, aget id (owner s) = Some k /\ aget id' (owner s) = Some k
}.

Definition oext (s s' : shared) : Prop := forall id k, aget id (owner s) = Some k -> aget id (owner s') = Some k.

Lemma SInv_core s s' : core s' = core s -> SInv s -> SInv s' /\ oext s s'.
Proof.
  intros Hc [A B C]. destruct (core_fields _ _ _ _ _ _ _ Hc) as (T & _ & S & N & O & _).
  split; [constructor | unfold oext]; rewrite ?T, ?S, ?N, ?O; auto.
Qed.

(* a generation published under the next id, as the first of its key or as the successor of
   the key's current one *)
Lemma SInv_publish s s' k v ts su vr :
  SInv s ->
  core s' = (aset k (mkgen (nid s) v ts) (tbl s), retired s, su, nid s + 1, aset (nid s) k (owner s), vr) ->
  (forall id id', aget id su = Some id' ->
     aget id (succ s) = Some id' \/ (id' = nid s /\ aget id (owner s) = Some k)) ->
  SInv s' /\ oext s s'.
Proof.
  intros [A B C] Hc Hsu. destruct (core_fields _ _ _ _ _ _ _ Hc) as (T & _ & S & N & O & _).
  assert (Hext : oext s s').
  { intros id k0 H. rewrite O, aget_aset_other; [exact H|]. intros ->. specialize (B _ _ H). lia. }
  split; [constructor; rewrite ?T, ?S, ?N | exact Hext].
  - intros k' g H. apply aget_aset_some in H. destruct H as [[-> ->]|[_ H]].
    + rewrite O. cbn. rewrite aget_aset_same. split; [reflexivity | lia].
    + destruct (A _ _ H). split; [auto | lia].
  - intros id k'. rewrite O. intros H. apply aget_aset_some in H. destruct H as [[-> _]|[_ H]]; [|specialize (B _ _ H)]; lia.
  - intros id id' H. destruct (Hsu _ _ H) as [H'|[-> H']].
    + destruct (C _ _ H') as (k' & H1 & H2). exists k'. split; auto.
    + exists k. split; [auto | rewrite O; apply aget_aset_same].
Qed.

Lemma shape_SInv s o p s' r c : shape s o p s' r c -> SInv s -> SInv s' /\ oext s s'.
Proof.
  intros Hs HI. destruct Hs as [s1 p' Hc _ _ _ | s1 ts ex r dev Hc _ | k e v ts ex r _ He | k s1 v ts ex r _ Hc | k t e ts ex _ _].
  1, 2: exact (SInv_core _ _ Hc HI).
  - apply (SInv_publish _ _ _ _ _ _ _ HI (core_publish_replace s k e v ts ex)).
    intros id id' H. apply aget_aset_some in H. destruct H as [[-> ->]|[_ H]]; [right | left; exact H].
    split; [reflexivity | exact (proj1 (si_tbl _ HI _ _ He))].
  - destruct (SInv_core _ _ Hc HI) as [HI1 He1].
    destruct (SInv_publish _ _ _ _ _ _ _ HI1 (core_publish_new s1 k v ts ex)) as [HI' He']; [auto|].
    split; [exact HI' | intros id k0 H; exact (He' _ _ (He1 _ _ H))].
  - destruct HI as [A B C].
    destruct (core_fields _ _ _ _ _ _ _ (core_retire_remove s k e ts ex)) as (T & _ & S & N & O & _).
    split; [constructor | unfold oext]; rewrite ?T, ?S, ?N, ?O; auto.
    intros k' g H. apply aget_adel_some in H. exact (A _ _ (proj1 H)).
Qed.

Lemma shape_retired s o p s' r c id t :
  shape s o p s' r c -> aget id (retired s') = Some t ->
  aget id (retired s) = Some t \/
  exists k t0 e ex, o = ODelete k t0 /\ aget k (tbl s) = Some e /\ id = g_id e /\
                    c = Some (mkc o t ex RUnit false).
Proof.
  intros Hs. destruct Hs as [s1 p' Hc _ _ _ | s1 ts ex r dev Hc _ | k e v ts ex r _ _ | k s1 v ts ex r _ Hc | k t0 e ts ex Ho He].
  1, 2: destruct (core_fields _ _ _ _ _ _ _ Hc) as (_ & -> & _); auto.
  - destruct (core_fields _ _ _ _ _ _ _ (core_publish_replace s k e v ts ex)) as (_ & -> & _); auto.
  - destruct (core_fields _ _ _ _ _ _ _ (core_publish_new s1 k v ts ex)) as (_ & -> & _).
    destruct (core_fields _ _ _ _ _ _ _ Hc) as (_ & -> & _); auto.
  - destruct (core_fields _ _ _ _ _ _ _ (core_retire_remove s k e ts ex)) as (_ & -> & _).
    intros H. apply aget_aset_some in H. destruct H as [[-> ->]|[_ H]]; [right | left; exact H].
    exists k, t0, e, ex. auto.
Qed.

Lemma nget_pos_some id l : 0 < nget id l -> aget id l = Some (nget id l).
Proof. unfold nget. destruct (aget id l); [reflexivity | lia]. Qed.

Lemma rt_fuel_witness s k : SInv s -> forall f id,
  aget id (owner s) = Some k -> 0 < rt_fuel f s id ->
  exists d, aget d (retired s) = Some (rt_fuel f s id) /\ aget d (owner s) = Some k.
Proof.
  intros HI. induction f as [|f IH]; intros id Ho Hp; cbn [rt_fuel] in *.
  - eauto using nget_pos_some.
  - destruct (aget id (succ s)) as [id'|] eqn:Es; [|eauto using nget_pos_some].
    destruct (si_succ _ HI _ _ Es) as (k' & H1 & H2). assert (k' = k) as -> by congruence.
    destruct (N.max_spec (nget id (retired s)) (rt_fuel f s id')) as [[_ Hm]|[_ Hm]]; rewrite Hm in *.
    + exact (IH id' H2 Hp).
    + eauto using nget_pos_some.
Qed.

Definition pc_own (s : shared) (o : op) (p : pc) : Prop :=
  forall g, In g (pc_held p) -> own s (key_of o) g.

Lemma pc_own_oext s s' o p : pc_own s o p -> oext s s' -> pc_own s' o p.
Proof. intros H He g Hg. exact (He _ _ (H g Hg)). Qed.

Lemma shape_pc s o p s' p' c :
  shape s o p s' (inl p') c -> SInv s -> explicit_pos o -> pc_own s o p -> pc_pos p ->
  pc_own s' o p' /\ pc_pos p'.
Proof.
  intros Hs HI Heo Hown Hpos. inversion Hs as [s1 p1 Hc Hts Hheld _| | | |]; subst.
  destruct (core_fields _ _ _ _ _ _ _ Hc) as (_ & _ & _ & _ & O & _). split.
  - intros g Hg. unfold own. rewrite O. destruct (Hheld g Hg) as [H|H]; [exact (Hown g H)|].
    exact (proj1 (si_tbl _ HI _ _ H)).
  - unfold pc_pos. destruct (pc_ts p'); [exact (ts_src_pos _ _ _ Heo Hpos Hts) | exact I].
Qed.

Lemma shape_cas s o p s' p' c : shape s o p s' (inl p') c -> pc_cas s' o p'.
Proof.
  intros Hs. inversion Hs as [s1 p1 Hc _ _ Hcas| | | |]; subst.
  destruct (core_fields _ _ _ _ _ _ _ Hc) as (T & _ & _ & _ & _ & V).
  revert Hcas. unfold pc_cas, kver. rewrite T, V. trivial.
Qed.

Lemma shape_flagged_older s o p s' r cm :
  shape s o p s' r (Some cm) -> SInv s -> explicit_pos o -> pc_own s o p -> pc_pos p ->
  c_dev cm = true -> c_resp cm = ROlder ->
  exists d r0, aget d (retired s) = Some r0 /\ aget d (owner s) = Some (key_of o) /\ c_ts cm <= r0.
Proof.
  intros Hs HI Heo Hown Hpos Hdev Hresp.
  inversion Hs as [|s1 ts ex r1 dev Hc Hf| | |]; subst; try discriminate Hdev.
  destruct (Hf Hdev Hresp) as [Hsrc Hb]. pose proof (ts_src_pos _ _ _ Heo Hpos Hsrc) as Hts.
  destruct (Hb Hts) as (g & Hg & Hle). cbn [c_ts] in *. unfold rt in Hle.
  destruct (rt_fuel_witness s _ HI _ _ (Hown g Hg) (N.lt_le_trans _ _ _ Hts Hle)) as (d & Hd & Ho).
  exists d. eauto.
Qed.

Lemma shape_commit s o p s' r cm :
  shape s o p s' r (Some cm) -> c_op cm = o /\ r = inr (c_resp cm).
Proof. intros Hs. inversion Hs; subst; split; reflexivity. Qed.

Definition acc_delete (k r : N) (c : commit) : Prop :=
  (exists t, c_op c = ODelete k t) /\ c_resp c = RUnit /\ c_ts c = r.

Definition justified_log (log : list (nat * commit)) : Prop :=
  forall l1 i c l2, log = l1 ++ (i, c) :: l2 -> c_dev c = true -> c_resp c = ROlder ->
  exists j c', In (j, c') l1 /\ acc_delete (key_of (c_op c)) (c_ts c') c' /\ c_ts c <= c_ts c'.

Record JInv (w : world) : Prop := {
  j_s : SInv (w_sh w);
  j_exp : Forall (fun th => Forall explicit_pos (t_ops th)) (w_th w);
  j_pc : threads_ok (fun s o p => pc_own s o p /\ pc_pos p) w;
  j_ret : forall id r, aget id (retired (w_sh w)) = Some r ->
          exists k, aget id (owner (w_sh w)) = Some k /\ exists j c', In (j, c') (w_log w) /\ acc_delete k r c';
  j_log : justified_log (w_log w)
}.

Lemma pc_own_start s o : pc_own s o PStart /\ pc_pos PStart.
Proof. split; [intros g [] | exact I]. Qed.

Lemma justified_snoc log i cm :
  justified_log log ->
  (c_dev cm = true -> c_resp cm = ROlder ->
   exists j c', In (j, c') log /\ acc_delete (key_of (c_op cm)) (c_ts c') c' /\ c_ts cm <= c_ts c') ->
  justified_log (log ++ [(i, cm)]).
Proof.
  intros HJ Hnew l1 i0 c l2 Heq Hd Hr.
  destruct l2 as [|x l2' _] using rev_ind.
  - apply app_inj_tail in Heq. destruct Heq as [<- [= <- <-]]. exact (Hnew Hd Hr).
  - rewrite app_comm_cons, app_assoc in Heq. apply app_inj_tail in Heq. destruct Heq as [Heq _].
    exact (HJ l1 i0 c l2' Heq Hd Hr).
Qed.

Theorem tstep_JInv w i : JInv w -> JInv (tstep w i).
Proof.
  intros H. destruct (tstep_spec w i) as [|th o rest s' r c Hth Hops Hstep]; [exact H|].
  destruct H as [HS Hexp Hpc Hret Hlog].
  pose proof (Hpc i th Hth) as Hcur. rewrite Hops in Hcur. destruct Hcur as [Hown Hpos].
  assert (Hexpi : Forall explicit_pos (o :: rest)).
  { rewrite <- Hops. exact (proj1 (Forall_forall _ _) Hexp th (nth_error_In _ _ Hth)). }
  inversion Hexpi as [|? ? Heo Hexp']; subst.
  pose proof (opstep_shape _ _ _ _ _ _ Hstep) as Hsh.
  destruct (shape_SInv _ _ _ _ _ _ Hsh HS) as [HS' Hext].
  assert (Hgrow : incl (w_log w) (match c with Some c0 => w_log w ++ [(i, c0)] | None => w_log w end)).
  { destruct c; [apply incl_appl|]; apply incl_refl. }
  constructor; cbn [w_sh w_th w_log].
  - exact HS'.
  - apply Forall_set_nth; [exact Hexp|]. destruct r; [exact Hexpi | exact Hexp'].
  - apply threads_step; trivial.
    + exact pc_own_start.
    + intros o2 p2 [H1 H2]. split; eauto using pc_own_oext.
    + intros p' ->. exact (shape_pc _ _ _ _ _ _ Hsh HS Heo Hown Hpos).
  - (* retired generations come from accepted deletes that are in the log *)
    intros id t Hid. destruct (shape_retired _ _ _ _ _ _ _ _ Hsh Hid) as [Hold|(k & t0 & e & ex & -> & He & -> & ->)].
    + destruct (Hret _ _ Hold) as (k & Hk & j & c' & Hin & Ha). exists k. split; [exact (Hext _ _ Hk)|].
      exists j, c'. split; [exact (Hgrow _ Hin) | exact Ha].
    + exists k. split; [exact (Hext _ _ (proj1 (si_tbl _ HS _ _ He)))|].
      eexists i, _. split; [apply in_elt | repeat esplit].
  - destruct c as [cm|]; [|exact Hlog].
    apply justified_snoc; [exact Hlog|]. intros Hd Hr.
    destruct (shape_flagged_older _ _ _ _ _ _ Hsh HS Heo Hown Hpos Hd Hr) as (d0 & r0 & Hr0 & Ho0 & Hle).
    destruct (Hret _ _ Hr0) as (k0 & Hk0 & j & c' & Hin & A1 & A2 & <-).
    assert (k0 = key_of o) as -> by congruence.
    rewrite (proj1 (shape_commit _ _ _ _ _ _ Hsh)).
    exists j, c'. repeat split; assumption.
Qed.

Lemma init_JInv shards progs : Forall (Forall explicit_pos) progs -> JInv (init_world shards progs).
Proof.
  intros Hp. constructor.
  - constructor; cbn; intros; discriminate.
  - apply Forall_map. exact Hp.
  - apply threads_init. exact pc_own_start.
  - intros; discriminate.
  - intros l1 i c l2 H. destruct l1; discriminate.
Qed.

(* In every execution, a call that was answered OlderTimestamp although the sequential spec
   would have accepted it is preceded in the commit log by an accepted delete of the same key with
   an equal or newer timestamp *)
Theorem older_refusals_are_justified shards progs sched fuel :
  Forall (Forall explicit_pos) progs ->
  justified_log (w_log (finish fuel (run (init_world shards progs) sched))).
Proof. intros Hp. apply j_log. apply exec_inv; [apply tstep_JInv | apply init_JInv; exact Hp]. Qed.

Lemma nget_aset_same k v l : nget k (aset k v l) = v.
Proof. unfold nget. rewrite aget_aset_same. reflexivity. Qed.
Lemma nget_aset_other k k' v l : k' <> k -> nget k' (aset k v l) = nget k' l.
Proof. intros H. unfold nget. rewrite aget_aset_other by exact H. reflexivity. Qed.

(* one step either leaves every table entry and counter alone, or is an accepted modification of
   its own key: that key's counter goes up by one, a commit that is not a refusal is logged, and
   nothing about the other keys changes *)
Lemma opstep_tblver s o p s' r c : opstep s o p = (s', r, c) ->
  (tbl s' = tbl s /\ ver s' = ver s) \/
  ((forall k, k <> key_of o -> aget k (tbl s') = aget k (tbl s) /\ kver s' k = kver s k) /\
   kver s' (key_of o) = kver s (key_of o) + 1 /\
   exists cm, c = Some cm /\ c_dev cm = false /\ c_op cm = o).
Proof.
  intros H.
  assert (Hbump : forall k, key_of o = k -> ver s' = aset k (nget k (ver s) + 1) (ver s) ->
            (forall k', k' <> k -> aget k' (tbl s') = aget k' (tbl s)) ->
            (exists cm, c = Some cm /\ c_dev cm = false /\ c_op cm = o) ->
            (forall k', k' <> key_of o -> aget k' (tbl s') = aget k' (tbl s) /\ kver s' k' = kver s k') /\
            kver s' (key_of o) = kver s (key_of o) + 1 /\
            exists cm, c = Some cm /\ c_dev cm = false /\ c_op cm = o).
  { intros k <- V Hoth Hc. unfold kver. rewrite V.
    split; [|split; [apply nget_aset_same | exact Hc]].
    intros k' Hk. rewrite nget_aset_other by exact Hk. auto. }
  destruct (opstep_shape _ _ _ _ _ _ H) as [s1 p' Hc _ _ _ | s1 ts ex r dev Hc _ | k e v ts ex r Hk _ | k s1 v ts ex r Hk Hc | k t e ts ex Ho _].
  1, 2: left; destruct (core_fields _ _ _ _ _ _ _ Hc) as (T & _ & _ & _ & _ & V); auto.
  - right. destruct (core_fields _ _ _ _ _ _ _ (core_publish_replace s k e v ts ex)) as (T & _ & _ & _ & _ & V).
    apply (Hbump k); eauto. rewrite T. auto using aget_aset_other.
  - right. destruct (core_fields _ _ _ _ _ _ _ (core_publish_new s1 k v ts ex)) as (T & _ & _ & _ & _ & V).
    destruct (core_fields _ _ _ _ _ _ _ Hc) as (T1 & _ & _ & _ & _ & V1). rewrite T1 in T. rewrite V1 in V.
    apply (Hbump k); eauto. rewrite T. auto using aget_aset_other.
  - subst o. right. destruct (core_fields _ _ _ _ _ _ _ (core_retire_remove s k e ts ex)) as (T & _ & _ & _ & _ & V).
    apply (Hbump k); eauto. rewrite T. auto using aget_adel_other.
Qed.

Lemma pc_cas_other s o p s' o2 p2 r2 c2 :
  pc_cas s o p -> opstep s o2 p2 = (s', r2, c2) -> pc_cas s' o p.
Proof.
  intros Hpc H. destruct o as [| | |k e n tso| | |], p; cbn [pc_cas] in *; trivial.
  destruct Hpc as [Hle Hsame].
  destruct (opstep_tblver _ _ _ _ _ _ H) as [[T V]|[Hoth [Hinc _]]].
  - unfold kver in *. rewrite V, T. split; assumption.
  - destruct (N.eq_dec k (key_of o2)) as [->|Hne].
    + split; lia.
    + destruct (Hoth k Hne) as [Ht Hv]. rewrite Hv, Ht. split; assumption.
Qed.

(* the step-level statement: the flagged "no swap" needs an entry that is not the generation read *)
Lemma cas_refusal_means_modified s k e n tso ts ex g v0 s' r cm :
  pc_cas s (OCas k e n tso) (PCGuard ts ex g v0) ->
  opstep s (OCas k e n tso) (PCGuard ts ex g v0) = (s', r, Some cm) -> c_dev cm = true ->
  v0 < kver s k.
Proof.
  intros [Hle Hsame] H Hdev. cbn [opstep] in H. unfold done in H.
  destruct (N.eq_dec (kver s k) v0) as [Heq|Hne]; [|lia].
  rewrite (Hsame Heq) in H. unfold same in H. rewrite N.eqb_refl in H. cbn [negb] in H.
  destruct (ts <=? g_ts g); injection H as _ _ <-; discriminate Hdev.
Qed.

Lemma tstep_cas w i : threads_ok pc_cas w -> threads_ok pc_cas (tstep w i).
Proof.
  intros H. destruct (tstep_spec w i) as [|th o rest s' r c Hth Hops Hstep]; [exact H|].
  apply threads_step; trivial.
  - exact pc_cas_start.
  - intros o2 p2 H2. exact (pc_cas_other _ _ _ _ _ _ _ _ H2 Hstep).
  - intros p' ->. exact (shape_cas _ _ _ _ _ _ (opstep_shape _ _ _ _ _ _ Hstep)).
Qed.

(* In every execution, when a compare-and-swap is answered with the flagged "no swap", the
   key has been modified since that call read it: its modification counter is above the value the
   call saw at its read (every unit of that counter is an accepted, logged modification of the key:
   opstep_tblver) *)
Theorem cas_refusals_are_justified shards progs sched i :
  let w := run (init_world shards progs) sched in
  forall th k e n tso rest ts ex g v0 s' r cm,
  nth_error (w_th w) i = Some th -> t_ops th = OCas k e n tso :: rest -> t_pc th = PCGuard ts ex g v0 ->
  opstep (w_sh w) (OCas k e n tso) (PCGuard ts ex g v0) = (s', r, Some cm) -> c_dev cm = true ->
  v0 < kver (w_sh w) k.
Proof.
  intros w th k e n tso rest ts ex g v0 s' r cm Hi Hops Hpcq Hstep Hdev.
  pose proof (run_inv _ tstep_cas sched _ (threads_init _ pc_cas_start shards progs) i th Hi) as H.
  rewrite Hops, Hpcq in H. exact (cas_refusal_means_modified _ _ _ _ _ _ _ _ _ _ _ _ H Hstep Hdev).
Qed.

(* a commit is produced by a step of the thread whose current call it answers *)
Theorem commit_is_own_step w i c :
  w_log (tstep w i) = w_log w ++ [(i, c)] ->
  exists th rest, nth_error (w_th w) i = Some th /\ t_ops th = c_op c :: rest /\
                  (table_ok (w_sh w) -> pc_ok (w_sh w) (c_op c) (t_pc th) ->
                   nth_error (w_th (tstep w i)) i = Some (mkth rest PStart (c_resp c :: t_out th))).
Proof.
  assert (Hnil : forall (l : list (nat * commit)) x, l <> l ++ [x]).
  { intros l x H. apply (f_equal (@length _)) in H. rewrite app_length in H. cbn in H. lia. }
  destruct (tstep_spec w i) as [|th o rest s' r c0 Hth Hops Hstep]; [intros H; destruct (Hnil _ _ H)|].
  cbn [w_log w_th]. destruct c0 as [cm|]; [|intros H; destruct (Hnil _ _ H)].
  intros H. apply app_inv_head in H. assert (cm = c) as -> by congruence.
  destruct (shape_commit _ _ _ _ _ _ (opstep_shape _ _ _ _ _ _ Hstep)) as [<- ->].
  exists th, rest. split; [exact Hth|]. split; [exact Hops|]. intros _ _.
  exact (nth_error_set_nth_same _ _ _ _ Hth).
Qed.

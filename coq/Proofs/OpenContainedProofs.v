(* Whatever the file holds (C17: any image; C05/C10: the reserved part of the layout): an open --
   journal replay, scan, both retirements of recovery -- never changes the length of the file, the
   primary metadata block, the backup metadata block or any other block in front of the data area
   outside the journal slots.  Everything recovery writes lies in the journal area or in the data
   area. *)
From Coq Require Import List NArith.
From Feox Require Import Model.Recovery
                         Proofs.ListFacts Proofs.RecoveryProofs Proofs.JournalLayoutProofs Proofs.RetireContainedProofs.
Import ListNotations.
Local Open Scope N_scope.

Lemma retire_two_untouched img p all nlosers :
  in_data all -> untouched img (fst (fst (retire_two img p all nlosers))).
Proof.
  intros D. unfold retire_two. cbv zeta.
  pose proof (retirement_is_contained img p (skipn (length all - nlosers) all)) as S1.
  destruct (retire_extents img p (skipn (length all - nlosers) all)) as [[img1 p1] ok1]. cbn [fst] in S1.
  apply (same_outside_untouched _ _ _ (incl_Forall (skipn_incl _ _) D)) in S1.
  destruct ok1; cbn [negb fst]; [|exact S1].
  apply (agree_on_trans _ _ _ _ S1).
  exact (same_outside_untouched _ _ _ (incl_Forall (firstn_incl _ _) D) (retirement_is_contained _ _ _)).
Qed.

Theorem open_never_touches_the_reserved_blocks c img : untouched img (snd (open_image c img)).
Proof.
  destruct (proj2 (open_image_outcome c img)) as [->|(_ & g & s & je & img1 & EJ & RP & W)]; [apply agree_on_refl|].
  assert (U1 : untouched img img1).
  { pose proof (replay_is_contained img (mkjpos g s) je) as S.
    destruct (replay img (mkjpos g s) je); cbn [replayed] in RP; try contradiction; subst;
      exact (same_outside_untouched _ _ _ (decode_journal_in_data _ _ _ _ _ _ EJ) S). }
  destruct W as [->|(p & all & nl & D & ->)]; [exact U1|].
  exact (agree_on_trans _ _ _ _ U1 (retire_two_untouched _ _ _ _ D)).
Qed.

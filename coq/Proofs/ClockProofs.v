(* C12, concurrent clause: one shard of the version clock under any interleaving of the atomic
   accesses of next and observe.  The shard never goes back, covers whatever a call returned, and
   every timestamp handed out exceeds those returned before it, unless the shard is saturated. *)
From Coq Require Import List NArith Bool Lia.
From Feox Require Import Model.Sched Model.Lww Model.Clock Proofs.ListFacts Proofs.AssocProofs.
Import ListNotations.
Local Open Scope N_scope.

(* The timestamp a returned call leaves behind for later ones to exceed.  observe(2^64-1) returns
   without touching the shard (Clock.kstep, KObsLoad), so it counts as 0: nothing is claimed of it. *)
Definition mval (m : kmark) : N :=
  match m with
  | MNext _ _ r _ => r
  | MObs _ ts => if ts =? U64M then 0 else ts
  end.

(* The timeline, newest first: each next returned at least its wall clock and more than the value
   [b] the shard held (or 2^64-1), and [b] covered every older mark. *)
Fixpoint line_ok (l : list kmark) : Prop :=
  match l with
  | [] => True
  | m :: rest =>
      match m with
      | MNext _ w r b => w <= r /\ (b < r \/ r = U64M) /\ Forall (fun x => mval x <= b) rest
      | MObs _ _ => True
      end /\ line_ok rest
  end.

Definition reg_ok (shard : N) (p : kpc) : Prop :=
  match p with
  | KNext wall last => last <= shard /\ wall <= U64M
  | KObs ts last => last <= shard /\ ts <= U64M
  end.

Record KInv (s : kst) : Prop := mkKInv {
  ki_bound : k_shard s <= U64M;
  ki_regs : forall t p, aget t (k_thr s) = Some p -> reg_ok (k_shard s) p;
  ki_line : line_ok (k_line s);
  ki_below : Forall (fun x => mval x <= k_shard s) (k_line s)
}.

Lemma clamp_le x : clamp x <= U64M.
Proof. unfold clamp. lia. Qed.

Lemma kinit_inv v : KInv (kinit v).
Proof.
  constructor; cbn; auto using clamp_le. discriminate.
Qed.

Lemma next_val_spec wall last :
  last <= U64M -> wall <= U64M ->
  last <= next_val wall last /\ wall <= next_val wall last /\ next_val wall last <= U64M /\
  (last < next_val wall last \/ next_val wall last = U64M).
Proof.
  intros Hl Hw. unfold next_val, sat_succ. destruct (N.ltb_spec last wall); lia.
Qed.

Lemma reg_ok_mono a b p : a <= b -> reg_ok a p -> reg_ok b p.
Proof. intros H. destruct p; cbn; lia. Qed.

Lemma below_mono (a b : N) l : a <= b -> Forall (fun x => mval x <= a) l -> Forall (fun x => mval x <= b) l.
Proof. intros H. apply Forall_impl. intros x Hx. lia. Qed.

Definition advances (s s' : kst) : Prop := KInv s' /\ k_shard s <= k_shard s'.

(* A thread that stays inside its call only rewrites its register ... *)
Lemma KInv_set_reg s t p :
  KInv s -> reg_ok (k_shard s) p -> advances s (mkkst (k_shard s) (aset t p (k_thr s)) (k_line s)).
Proof.
  intros [Hb Hr Hln Hbl] Hp. split; [|cbn; lia]. constructor; cbn [k_shard k_thr k_line]; auto.
  intros t0 q H. destruct (aget_aset_some _ _ _ _ _ H) as [[_ ->]|[_ E]]; eauto.
Qed.

(* ... and one that returns gives up its register, may raise the shard, and puts its mark on the
   timeline. *)
Lemma KInv_return s t sh m :
  KInv s -> k_shard s <= sh <= U64M -> mval m <= sh ->
  match m with
  | MNext _ w r b => w <= r /\ (b < r \/ r = U64M) /\ Forall (fun x => mval x <= b) (k_line s)
  | MObs _ _ => True
  end ->
  advances s (mkkst sh (adel t (k_thr s)) (m :: k_line s)).
Proof.
  intros [Hb Hr Hln Hbl] [Hlo Hhi] Hm Hl. split; [|exact Hlo].
  constructor; cbn [k_shard k_thr k_line line_ok]; eauto using below_mono.
  intros t0 p [H _]%aget_adel_some. eauto using reg_ok_mono.
Qed.

Lemma kstep_ok s e : KInv s -> advances s (kstep s e).
Proof.
  intros Hinv. pose proof (ki_bound s Hinv) as Hb. assert (Stay : advances s s) by (split; [exact Hinv | lia]).
  destruct e as [t wall|t sp|t ts|t sp]; cbn [kstep].
  - apply KInv_set_reg; [exact Hinv|]. split; [lia | apply clamp_le].
  - destruct (aget t (k_thr s)) as [[wall last|ts last]|] eqn:T; try exact Stay.
    destruct (ki_regs s Hinv _ _ T) as [Hl Hw].
    destruct ((k_shard s =? last) && negb sp) eqn:C; [|apply KInv_set_reg; [exact Hinv | split; lia]].
    apply andb_true_iff in C as [C%N.eqb_eq _]. subst last.
    destruct (next_val_spec wall (k_shard s) Hb Hw) as (A & B & D & E).
    apply KInv_return; [exact Hinv | lia | cbn; lia | auto using ki_below].
  - destruct (clamp ts =? U64M); [|apply KInv_set_reg; [exact Hinv | split; [lia | apply clamp_le]]].
    apply KInv_return; [exact Hinv | lia | | exact I]. unfold mval. rewrite N.eqb_refl. lia.
  - destruct (aget t (k_thr s)) as [[wall last|ts last]|] eqn:T; try exact Stay.
    destruct (ki_regs s Hinv _ _ T) as [Hl Hw].
    assert (Hm : forall sh, ts <= sh -> mval (MObs t ts) <= sh) by (intros sh H; cbn; destruct (ts =? U64M); lia).
    destruct (N.leb_spec ts last) as [Hle|Hgt]; [apply KInv_return; [exact Hinv | lia | apply Hm; lia | exact I]|].
    destruct ((k_shard s =? last) && negb sp) eqn:C; [|apply KInv_set_reg; [exact Hinv | split; lia]].
    apply andb_true_iff in C as [C%N.eqb_eq _].
    apply KInv_return; [exact Hinv | lia | apply Hm; lia | exact I].
Qed.

Theorem krun_inv es s : KInv s -> KInv (krun s es).
Proof. apply fold_left_inv. intros s1 e I1. exact (proj1 (kstep_ok s1 e I1)). Qed.

Theorem krun_mono es s : KInv s -> k_shard s <= k_shard (krun s es).
Proof.
  intros Hinv. refine (proj2 (fold_left_inv kstep (advances s) _ es s (conj Hinv (N.le_refl _)))).
  intros s1 e [I1 H1]. destruct (kstep_ok s1 e I1) as [I2 H2]. split; [exact I2 | lia].
Qed.

Lemma line_ok_suffix l1 : forall l2, line_ok (l1 ++ l2) -> line_ok l2.
Proof. induction l1 as [|m t IH]; intros l2 H; [exact H|]. cbn [app line_ok] in H. apply IH. tauto. Qed.

(* whatever a call returned, the shard covers it from then on *)
Lemma mark_is_covered v es m : In m (k_line (krun (kinit v) es)) -> mval m <= k_shard (krun (kinit v) es).
Proof. revert m. apply Forall_forall. exact (ki_below _ (krun_inv es _ (kinit_inv v))). Qed.

(* every timestamp `next` hands out exceeds every timestamp handed out before it on the shard and
   every timestamp whose observe had returned before it, unless the shard is saturated *)
Theorem issued_exceeds_everything_before v es l1 t w r b l2 m :
  k_line (krun (kinit v) es) = l1 ++ MNext t w r b :: l2 -> In m l2 ->
  clamp w = w /\ w <= r /\ (mval m < r \/ r = U64M).
Proof.
  intros E Hm. pose proof (krun_inv es _ (kinit_inv v)) as Hinv.
  pose proof (ki_line _ Hinv) as L. rewrite E in L. apply line_ok_suffix in L. cbn [line_ok] in L.
  destruct L as [[Hw [Hr F]] _]. rewrite Forall_forall in F. specialize (F _ Hm).
  split; [|split; [exact Hw|lia]].
  pose proof (mark_is_covered v es (MNext t w r b)) as B. rewrite E in B.
  specialize (B (in_elt _ _ _)). cbn in B. pose proof (ki_bound _ Hinv). unfold clamp. lia.
Qed.

(* a returned observe(ts) is covered by the shard from then on *)
Theorem observed_is_covered v es t ts :
  In (MObs t ts) (k_line (krun (kinit v) es)) -> ts <> U64M -> ts <= k_shard (krun (kinit v) es).
Proof.
  intros H Hn. apply mark_is_covered in H. cbn in H. destruct (N.eqb_spec ts U64M); [contradiction | exact H].
Qed.

Theorem issued_is_covered v es t w r b :
  In (MNext t w r b) (k_line (krun (kinit v) es)) -> r <= k_shard (krun (kinit v) es).
Proof. exact (mark_is_covered v es (MNext t w r b)). Qed.

(* a call run alone is what the reference map's clock rules (Model.Lww auto_ok / observe, which
   the sequence engines compare with the real shard after every call) say *)
Theorem next_alone_is_auto_ok s t wall tb ta :
  KInv s -> tb <= clamp wall -> clamp wall <= ta ->
  k_shard (next_alone s t wall) = next_val (clamp wall) (k_shard s) /\
  auto_ok (k_shard s) (k_shard (next_alone s t wall)) tb ta = true.
Proof.
  intros Hinv Hb Ha. unfold next_alone. cbn [kstep k_thr k_shard]. rewrite aget_aset_same, N.eqb_refl. cbn [negb andb k_shard].
  split; [reflexivity|]. pose proof (ki_bound s Hinv) as Hs. pose proof (clamp_le wall) as Hc.
  unfold auto_ok, next_val, sat_succ.
  destruct (N.eqb_spec (k_shard s) U64M); destruct (N.ltb_spec (k_shard s) (clamp wall));
    rewrite ?andb_true_iff, ?orb_true_iff, ?N.ltb_lt, ?N.leb_le, ?N.eqb_eq; lia.
Qed.

Theorem observe_alone_is_observe s t ts :
  KInv s -> k_shard (observe_alone s t ts) = observe (k_shard s) (clamp ts).
Proof.
  intros Hinv. unfold observe_alone, observe. cbn [kstep].
  destruct (N.eqb_spec (clamp ts) U64M) as [E|E].
  - cbn [k_thr k_shard]. rewrite aget_adel_same. reflexivity.
  - cbn [k_thr k_shard]. rewrite aget_aset_same.
    destruct (N.leb_spec (clamp ts) (k_shard s)); cbn [k_shard]; [lia|].
    rewrite N.eqb_refl. cbn [negb andb k_shard]. lia.
Qed.

(* the unrestricted statement fails at saturation (finding F2's mechanism): two automatic
   timestamps in a row are equal once the shard holds 2^64-1 *)
Theorem saturated_shard_repeats :
  exists v es t1 w1 b1 t2 w2 b2,
    k_line (krun (kinit v) es) = [MNext t2 w2 U64M b2; MNext t1 w1 U64M b1].
Proof.
  exists (U64M - 1), [KNextLoad 1 5; KNextCas 1 false; KNextLoad 2 5; KNextCas 2 false], 1, 5, (U64M - 1), 2, 5, U64M.
  vm_compute. reflexivity.
Qed.

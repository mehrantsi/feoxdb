(* Proofs about Model/FreeSpace.v.  The state is read as the set of free blocks ([free]); the
   representation invariant [Inv] makes the run list the canonical form of that set, and
   allocate/release are specified by what they do to the set ([alloc_cases], [release_cases]). *)
From Coq Require Import List NArith Bool Lia.
From Feox Require Import Gen.Constants Model.FreeSpace.
Import ListNotations.
Local Open Scope N_scope.

Local Arguments N.add : simpl never.
Local Arguments N.sub : simpl never.
Local Arguments N.mul : simpl never.
Local Arguments N.div : simpl never.
Local Arguments N.modulo : simpl never.
Local Arguments N.ltb : simpl never.
Local Arguments N.leb : simpl never.
Local Arguments N.eqb : simpl never.

Notation DS := FEOX_DATA_START_BLOCK.
Notation BS := FEOX_BLOCK_SIZE.

Lemma BS_pos : 0 < BS. Proof. reflexivity. Qed.
Local Opaque FEOX_BLOCK_SIZE FEOX_DATA_START_BLOCK.

(* runs ascending, non-empty, inside [lo,hi), never adjacent *)
Fixpoint wf (lo hi : N) (l : list run) : Prop :=
  match l with
  | [] => True
  | r :: t => lo <= fst r /\ 0 < snd r /\ fst r + snd r <= hi /\ wf (fst r + snd r + 1) hi t
  end.

(* block b lies in run r; OwnershipProofs.in_ext and FailPathProofs.blk_in say the same of an
   extent, and the three are convertible *)
Definition inr (b : N) (r : run) : Prop := fst r <= b /\ b < fst r + snd r.
Definition freel (l : list run) (b : N) : Prop := exists r, In r l /\ inr b r.
Definition free (s : fs) (b : N) : Prop := freel (runs s) b.

Definition frag_of (l : list run) : N :=
  if sum_sizes l * BS =? 0 then 0
  else if N.of_nat (length l) <=? 1 then 0
  else ((sum_sizes l * BS - max_size l * BS) * 100 / (sum_sizes l * BS)) mod 4294967296.

Record Inv (s : fs) : Prop := {
  inv_dev : DS < dev_sectors s;
  inv_u64 : dev_bytes s < U64;
  inv_wf : wf DS (dev_sectors s) (runs s);
  inv_total : total_free s = sum_sizes (runs s) * BS;
  inv_frag : frag s = frag_of (runs s)
}.

Lemma wf_weaken lo lo' hi l : wf lo hi l -> lo' <= lo -> wf lo' hi l.
Proof. destruct l; simpl; intuition lia. Qed.

Lemma wf_In {lo hi l r} : wf lo hi l -> In r l -> lo <= fst r /\ 0 < snd r /\ fst r + snd r <= hi.
Proof.
  revert lo; induction l as [|x t IH]; simpl; [tauto|].
  intros lo (H1 & H2 & H3 & H4) [->|Hin]; [auto|]. specialize (IH _ H4 Hin). lia.
Qed.

Lemma wf_cons lo hi x t : wf lo hi (x :: t) ->
  0 < snd x /\ (forall r, In r t -> fst x + snd x < fst r) /\ wf (fst x + snd x + 1) hi t.
Proof.
  simpl; intros (_ & H2 & _ & H4). repeat split; auto.
  intros r Hin. destruct (wf_In H4 Hin) as (A & _). lia.
Qed.

Lemma inr_dec b r : inr b r \/ ~ inr b r.
Proof. unfold inr. lia. Qed.

Lemma freel_ge lo hi l b : wf lo hi l -> freel l b -> lo <= b /\ b < hi.
Proof. intros Hwf (r & Hin & Hb & Hb'). destruct (wf_In Hwf Hin). lia. Qed.

Lemma freel_cons x t b : freel (x :: t) b <-> inr b x \/ freel t b.
Proof.
  unfold freel; simpl; split.
  - intros (r & [->|Hin] & Hb); eauto.
  - intros [Hb|(r & Hin & Hb)]; eauto.
Qed.

Lemma freel_nil b : ~ freel [] b.
Proof. intros (r & [] & _). Qed.

Lemma wf_sep {lo hi l r1 r2} : wf lo hi l -> In r1 l -> In r2 l -> r1 = r2 \/
  fst r1 + snd r1 < fst r2 \/ fst r2 + snd r2 < fst r1.
Proof.
  revert lo; induction l as [|x t IH]; intros lo Hwf H1 H2; [destruct H1|].
  destruct (wf_cons _ _ _ _ Hwf) as (_ & Hsep & Ht).
  destruct H1 as [<-|H1], H2 as [<-|H2]; eauto.
Qed.

Lemma inr_unique lo hi l r1 r2 b : wf lo hi l -> In r1 l -> In r2 l -> inr b r1 -> inr b r2 -> r1 = r2.
Proof. intros Hwf H1 H2. destruct (wf_sep Hwf H1 H2) as [|[|]]; auto; unfold inr; lia. Qed.

Lemma wf_start_unique lo hi l r1 r2 : wf lo hi l -> In r1 l -> In r2 l -> fst r1 = fst r2 -> r1 = r2.
Proof.
  intros Hwf H1 H2 Heq.
  destruct (wf_In Hwf H1) as (_ & ? & _), (wf_In Hwf H2) as (_ & ? & _).
  destruct (wf_sep Hwf H1 H2) as [|[|]]; auto; lia.
Qed.

Lemma wf_maximal lo hi l r : wf lo hi l -> In r l ->
  (forall b, inr b r -> freel l b) /\ ~ freel l (fst r + snd r) /\ (forall b, b + 1 = fst r -> ~ freel l b).
Proof.
  intros W Hr. destruct (wf_In W Hr) as (_ & P & _). split; [intros b Hb; exists r; auto|]. split.
  - intros (r' & Hr' & Hb). destruct (wf_sep W Hr Hr') as [->|[S|S]]; unfold inr in *; lia.
  - intros b Hb (r' & Hr' & Hb'). destruct (wf_sep W Hr Hr') as [->|[S|S]]; unfold inr in *; lia.
Qed.

Lemma In_insert_sorted x l y : In y (insert_sorted x l) <-> x = y \/ In y l.
Proof.
  induction l as [|r t IH]; simpl; [reflexivity|].
  destruct (fst x <? fst r); simpl; [reflexivity|]. rewrite IH. tauto.
Qed.

Lemma freel_insert x l b : freel (insert_sorted x l) b <-> inr b x \/ freel l b.
Proof. unfold freel at 1. setoid_rewrite In_insert_sorted. exact (freel_cons x l b). Qed.

Lemma In_remove_start lo hi a l y : wf lo hi l ->
  (In y (remove_start a l) <-> In y l /\ fst y <> a).
Proof.
  revert lo; induction l as [|r t IH]; simpl; intros lo Hwf; [intuition|].
  destruct (wf_cons _ _ _ _ Hwf) as (Hr & Hsep & Ht).
  destruct (N.eqb_spec (fst r) a) as [E|E].
  - split.
    + intros Hy. specialize (Hsep y Hy). split; [auto|lia].
    + intros ([<-|Hy] & Hne); [congruence|auto].
  - simpl. rewrite (IH _ Ht). intuition congruence.
Qed.

Lemma In_remove_run lo hi l r y : wf lo hi l -> In r l ->
  (In y (remove_start (fst r) l) <-> In y l /\ y <> r).
Proof.
  intros Hwf Hr. rewrite (In_remove_start lo hi) by auto.
  pose proof (wf_start_unique lo hi l y r Hwf). intuition congruence.
Qed.

Lemma freel_without l l' r : (forall y, In y l' <-> In y l /\ y <> r) ->
  (forall r' b, In r' l -> r' <> r -> inr b r' -> ~ inr b r) ->
  forall b, freel l' b <-> freel l b /\ ~ inr b r.
Proof.
  intros IR U b. unfold freel. setoid_rewrite IR. split.
  - intros (r' & (Hin & Hne) & Hb). split; [eauto | exact (U r' b Hin Hne Hb)].
  - intros ((r' & Hin & Hb) & Hnb). exists r'. intuition congruence.
Qed.

Lemma freel_remove lo hi l r b : wf lo hi l -> In r l ->
  (freel (remove_start (fst r) l) b <-> freel l b /\ ~ inr b r).
Proof.
  intros Hwf Hr. apply freel_without.
  - intros y. apply (In_remove_run lo hi); auto.
  - intros r' b' Hr' Hne H1 H2. apply Hne, (inr_unique lo hi l r' r b'); auto.
Qed.

Lemma has_start_spec a l : has_start a l = true <-> exists r, In r l /\ fst r = a.
Proof.
  induction l as [|r t IH]; simpl.
  - split; [discriminate|intros (? & [] & _)].
  - rewrite orb_true_iff, IH, N.eqb_eq. split.
    + intros [E|(r' & A & B)]; eauto.
    + intros (r' & [<-|A] & B); eauto.
Qed.

Lemma wf_remove lo hi a l : wf lo hi l -> wf lo hi (remove_start a l).
Proof.
  revert lo; induction l as [|r t IH]; simpl; [auto|]. intros lo (H1 & H2 & H3 & H4).
  destruct (fst r =? a); [apply (wf_weaken _ _ _ _ H4); lia|simpl; auto].
Qed.

(* x neither overlaps nor touches a run of l *)
Definition apart (x : run) (l : list run) : Prop :=
  forall r, In r l -> fst x + snd x < fst r \/ fst r + snd r < fst x.

Lemma wf_insert lo hi x l : wf lo hi l -> lo <= fst x -> 0 < snd x -> fst x + snd x <= hi ->
  apart x l -> wf lo hi (insert_sorted x l).
Proof.
  revert lo; induction l as [|r t IH]; simpl; intros lo Hwf Hlo Hpos Hhi Hsep.
  - auto.
  - destruct Hwf as (H1 & H2 & H3 & H4). pose proof (Hsep r (or_introl eq_refl)) as Hr.
    destruct (N.ltb_spec (fst x) (fst r)) as [L|L]; simpl; repeat split; auto; try lia.
    apply IH; auto; [lia|]. intros r' Hr'. apply Hsep; right; auto.
Qed.

Lemma sum_insert x l : sum_sizes (insert_sorted x l) = snd x + sum_sizes l.
Proof. induction l as [|r t IH]; simpl; [lia|]. destruct (fst x <? fst r); simpl; lia. Qed.

Lemma sum_remove lo hi l r : wf lo hi l -> In r l ->
  sum_sizes (remove_start (fst r) l) + snd r = sum_sizes l.
Proof.
  revert lo; induction l as [|x t IH]; simpl; intros lo Hwf Hin; [tauto|].
  destruct (N.eqb_spec (fst x) (fst r)) as [E|E].
  - assert (x = r) as -> by (apply (wf_start_unique lo hi (x :: t)); simpl; auto).
    lia.
  - destruct Hin as [->|Hin]; [congruence|]. simpl.
    destruct (wf_cons _ _ _ _ Hwf) as (_ & _ & Ht). specialize (IH _ Ht Hin). lia.
Qed.

Lemma sum_ge_In l r : In r l -> snd r <= sum_sizes l.
Proof. induction l as [|x t IH]; simpl; [tauto|]. intros [->|H%IH]; lia. Qed.

Lemma max_size_ge l r : In r l -> snd r <= max_size l.
Proof. induction l as [|x t IH]; simpl; [tauto|]. intros [->|H%IH]; lia. Qed.

Lemma max_size_In l : l <> [] -> exists r, In r l /\ snd r = max_size l.
Proof.
  induction l as [|x t IH]; [congruence|]. intros _. simpl.
  destruct (N.max_spec (snd x) (max_size t)) as [[A ->]|[A ->]]; [|eauto].
  destruct IH as (r & Hin & Hr); [intros ->; simpl in A; lia|eauto].
Qed.

Lemma best_fit_some n l r : best_fit n l = Some r -> In r l /\ n <= snd r.
Proof.
  revert r; induction l as [|x t IH]; simpl; intros r; [discriminate|].
  destruct (N.leb_spec n (snd x)) as [L|L].
  - destruct (best_fit n t) as [r'|] eqn:E.
    + destruct (lex_lt r' x); intros [= <-]; [destruct (IH _ eq_refl); auto|auto].
    + intros [= <-]; auto.
  - intros H; destruct (IH _ H); auto.
Qed.

Lemma best_fit_none n l : best_fit n l = None <-> forall r, In r l -> snd r < n.
Proof.
  induction l as [|x t IH]; simpl; [intuition|].
  destruct (N.leb_spec n (snd x)) as [L|L].
  - split.
    + destruct (best_fit n t) as [r'|]; [destruct (lex_lt r' x)|]; discriminate.
    + intros H. specialize (H x (or_introl eq_refl)). lia.
  - rewrite IH. split; intros H r; [intros [<-|Hin]; auto|auto].
Qed.

Lemma preceding_spec lo hi l st : wf lo hi l ->
  match preceding st l with
  | Some p => In p l /\ fst p < st /\ (forall r, In r l -> fst r < st -> r = p \/ fst r + snd r < fst p)
  | None => forall r, In r l -> st <= fst r
  end.
Proof.
  revert lo; induction l as [|x t IH]; intros lo Hwf; [simpl; tauto|].
  destruct (wf_cons _ _ _ _ Hwf) as (Hx & Hsep & Ht). specialize (IH _ Ht).
  cbn [preceding]. destruct (N.ltb_spec (fst x) st) as [L|L].
  - destruct (preceding st t) as [p|].
    + destruct IH as (A & B & C). split; [right; auto|]. split; auto.
      intros r [<-|Hr] Hlt; auto.
    + split; [left; auto|]. split; auto.
      intros r [<-|Hr] Hlt; [auto|]. specialize (IH _ Hr). lia.
  - intros r [<-|Hr]; auto. specialize (Hsep _ Hr). lia.
Qed.

Lemma following_spec lo hi l st en : wf lo hi l ->
  match following st en l with
  | Some f => In f l /\ st <= fst f <= en /\ (forall r, In r l -> st <= fst r -> r = f \/ fst f + snd f < fst r)
  | None => forall r, In r l -> fst r < st \/ en < fst r
  end.
Proof.
  revert lo; induction l as [|x t IH]; intros lo Hwf; [simpl; tauto|].
  destruct (wf_cons _ _ _ _ Hwf) as (Hx & Hsep & Ht). specialize (IH _ Ht).
  cbn [following]. destruct (N.ltb_spec (fst x) st) as [L|L].
  - destruct (following st en t) as [f|].
    + destruct IH as (A & B & C). split; [right; auto|]. split; auto.
      intros r [<-|Hr] Hge; [lia|auto].
    + intros r [<-|Hr]; auto.
  - destruct (N.leb_spec (fst x) en) as [L2|L2].
    + split; [left; auto|]. split; [lia|]. intros r [<-|Hr] Hge; auto.
    + intros r [<-|Hr]; [lia|]. specialize (Hsep _ Hr). lia.
Qed.

(* Inv without the cached fragmentation: what holds between the steps of an operation, before
   update_fragmentation ends it *)
Record StepInv (s : fs) : Prop := {
  step_dev : DS < dev_sectors s;
  step_u64 : dev_bytes s < U64;
  step_wf : wf DS (dev_sectors s) (runs s);
  step_total : total_free s = sum_sizes (runs s) * BS
}.

Lemma Inv_StepInv s : Inv s -> StepInv s.
Proof. intros []; constructor; auto. Qed.

Lemma dev_sectors_le s : dev_sectors s <= dev_bytes s.
Proof.
  unfold dev_sectors. pose proof BS_pos.
  apply N.div_le_upper_bound; [lia|]. nia.
Qed.

Lemma dev_sectors_same s s' : dev_bytes s' = dev_bytes s -> dev_sectors s' = dev_sectors s.
Proof. unfold dev_sectors. intros ->. reflexivity. Qed.

(* The two range checks of the code.  Under the invariant their u64 and empty-device branches
   are dead, and what is left is containment in the data area (for the first only the direction
   used). *)
Lemma valid_free_space_ok s r : StepInv s ->
  DS <= fst r -> fst r < dev_sectors s -> fst r + snd r <= dev_sectors s -> valid_free_space s r = true.
Proof.
  intros [H1 H2 _ _] A B C. pose proof (dev_sectors_le s). unfold valid_free_space.
  destruct (N.ltb_spec (fst r) DS); [lia|].
  destruct (N.ltb_spec 0 (dev_bytes s)); [|lia].
  destruct (N.leb_spec (dev_sectors s) (fst r)); [lia|].
  destruct (N.leb_spec U64 (fst r + snd r)); [lia|].
  destruct (N.ltb_spec (dev_sectors s) (fst r + snd r)); [lia|reflexivity].
Qed.

Lemma valid_sector_range_iff s a c : StepInv s ->
  (valid_sector_range s a c = true <-> DS <= a /\ 0 < c /\ a + c <= dev_sectors s).
Proof.
  intros [H1 H2 _ _]. pose proof (dev_sectors_le s). unfold valid_sector_range.
  destruct (N.ltb_spec a DS); [split; [discriminate|lia]|].
  destruct (N.eqb_spec c 0); [split; [discriminate|lia]|]. cbn [orb].
  destruct (N.ltb_spec 0 (dev_bytes s)); [|lia].
  destruct (N.leb_spec (dev_sectors s) a); [split; [discriminate|lia]|].
  destruct (N.leb_spec U64 (a + c)); [split; [discriminate|lia]|].
  rewrite N.leb_le. lia.
Qed.

Lemma update_fragmentation_eq s : total_free s = sum_sizes (runs s) * BS ->
  update_fragmentation s = mkfs (runs s) (dev_bytes s) (total_free s) (frag_of (runs s)).
Proof.
  intros H. unfold update_fragmentation, frag_of. rewrite <- H.
  destruct (total_free s =? 0); [|destruct (N.of_nat (length (runs s)) <=? 1)]; reflexivity.
Qed.

Lemma update_fragmentation_post s s2 (X : N -> Prop) :
  StepInv s2 -> dev_bytes s2 = dev_bytes s -> (forall b, freel (runs s2) b <-> X b) ->
  Inv (update_fragmentation s2) /\ dev_bytes (update_fragmentation s2) = dev_bytes s /\
  (forall b, free (update_fragmentation s2) b <-> X b).
Proof.
  intros [H1 H2 H3 H4] D F. rewrite (update_fragmentation_eq s2 H4).
  split; [constructor|]; auto.
Qed.

Lemma remove_run_StepInv s r : StepInv s -> In r (runs s) -> StepInv (remove_run s r).
Proof.
  intros [H1 H2 H3 H4] Hin. constructor; simpl; auto.
  - apply wf_remove; auto.
  - pose proof (sum_remove _ _ _ _ H3 Hin). rewrite H4. rewrite <- H. nia.
Qed.

(* the state insert_free_space builds when it accepts *)
Definition insert_run (s : fs) (x : run) : fs :=
  mkfs (insert_sorted x (runs s)) (dev_bytes s) (total_free s + snd x * BS) (frag s).

Lemma insert_free_space_ok s x : StepInv s ->
  DS <= fst x -> 0 < snd x -> fst x + snd x <= dev_sectors s -> apart x (runs s) ->
  insert_free_space s x = FOk (insert_run s x) /\ StepInv (insert_run s x).
Proof.
  intros HP Hlo Hpos Hhi Hsep. pose proof HP as [H1 H2 H3 H4]. split.
  - unfold insert_free_space.
    destruct (N.eqb_spec (snd x) 0); [lia|].
    rewrite (valid_free_space_ok s x HP) by lia. cbn [negb].
    destruct (has_start (fst x) (runs s)) eqn:HS; [|reflexivity].
    apply has_start_spec in HS. destruct HS as (r & Hin & E).
    destruct (Hsep _ Hin); destruct (wf_In H3 Hin) as (_ & ? & _); lia.
  - constructor; simpl; auto.
    + apply wf_insert; auto.
    + rewrite sum_insert, H4. nia.
Qed.

Definition alloc_post (n : N) (s : fs) (a : N) (s' : fs) : Prop :=
  DS <= a /\ a + n <= dev_sectors s /\
  (forall b, a <= b < a + n -> free s b) /\
  Inv s' /\ dev_bytes s' = dev_bytes s /\
  (forall b, free s' b <-> free s b /\ ~ (a <= b < a + n)).

Lemma alloc_cases n s : Inv s ->
  (n = 0 /\ alloc n s = (FErr EArg, s)) \/
  (0 < n /\ (forall r, In r (runs s) -> snd r < n) /\ alloc n s = (FErr ESpace, s)) \/
  (0 < n /\ exists a s', alloc n s = (FOk a, s') /\ alloc_post n s a s').
Proof.
  intros HI. pose proof (Inv_StepInv _ HI) as HP. pose proof (step_wf _ HP) as W.
  unfold alloc. destruct (N.eqb_spec n 0) as [->|Hn]; [left; auto|right].
  destruct (best_fit n (runs s)) as [r|] eqn:BF.
  2:{ left. rewrite best_fit_none in BF. split; [lia|auto]. }
  right. split; [lia|].
  destruct (best_fit_some _ _ _ BF) as (Hin & Hge).
  destruct (wf_In W Hin) as (R1 & R2 & R3).
  rewrite (valid_free_space_ok s r HP) by lia. cbn [negb].
  pose proof (remove_run_StepInv s r HP Hin) as HP1.
  pose proof (fun b => freel_remove _ _ _ r b W Hin) as FR.
  assert (RF : forall b, inr b r -> free s b) by (intros b Hb; exists r; auto).
  (* both branches end in update_fragmentation, on a state whose free set has lost the first n
     blocks of r; r is a free run, so they were in it *)
  assert (POST : forall s2, StepInv s2 -> dev_bytes s2 = dev_bytes s ->
    (forall b, freel (runs s2) b <-> free s b /\ ~ (fst r <= b < fst r + n)) ->
    alloc_post n s (fst r) (update_fragmentation s2)).
  { intros s2 P2 D2 F2. split; [lia|]. split; [lia|].
    split; [intros b Hb; apply RF; unfold inr; lia|]. apply update_fragmentation_post; assumption. }
  exists (fst r). destruct (N.ltb_spec n (snd r)) as [Hlt|Hge'].
  - (* split: the remainder goes back *)
    destruct (insert_free_space_ok (remove_run s r) (fst r + n, snd r - n) HP1) as (E & HP2);
      [simpl; lia|simpl; lia|change (dev_sectors (remove_run s r)) with (dev_sectors s); simpl; lia| |].
    { intros r' Hr'. apply (In_remove_run _ _ _ r r' W Hin) in Hr'. destruct Hr' as (Hr' & Hne).
      destruct (wf_sep W Hr' Hin) as [->|[S|S]]; [congruence| |]; simpl; lia. }
    rewrite E. eexists. split; [reflexivity|]. apply POST; [exact HP2|reflexivity|].
    intros b. cbn [insert_run remove_run runs]. rewrite freel_insert, FR.
    assert (CUT : inr b (fst r + n, snd r - n) <-> inr b r /\ ~ (fst r <= b < fst r + n))
      by (unfold inr; simpl; lia).
    assert (TR : fst r <= b < fst r + n -> inr b r) by (unfold inr; lia).
    rewrite CUT. specialize (RF b). pose proof (inr_dec b r) as DEC. clear - RF TR DEC. tauto.
  - (* exact fit *)
    assert (snd r = n) by lia. subst n.
    eexists. split; [reflexivity|]. apply POST; [exact HP1|reflexivity|exact FR].
Qed.

Definition oinr (b : N) (o : option run) : Prop :=
  match o with Some r => inr b r | None => False end.

(* The two sides of a release of [st, en).  prev and next are the neighbours try_merge joins, a
   and z where the merged run will start and end; every other run lies wholly beyond a or z. *)
Lemma prev_side lo hi l st en : wf lo hi l -> lo <= st -> st < en ->
  if overlaps_pre st (preceding st l) then exists b, st <= b < en /\ freel l b else
  let prev := match preceding st l with
              | Some p => if fst p + snd p =? st then Some p else None | None => None end in
  let a := match prev with Some p => fst p | None => st end in
  lo <= a <= st /\ (forall p, prev = Some p -> In p l /\ fst p + snd p = st) /\
  (forall r, In r l -> fst r < st -> prev = Some r \/ fst r + snd r < a).
Proof.
  intros W Hlo Hlt. pose proof (preceding_spec _ _ _ st W) as PS.
  destruct (preceding st l) as [p|]; cbn [overlaps_pre].
  - destruct PS as (A & B & C). destruct (wf_In W A) as (? & _).
    destruct (N.ltb_spec st (fst p + snd p)) as [OP|OP].
    { exists st. split; [lia|]. exists p. split; auto. unfold inr; lia. }
    destruct (N.eqb_spec (fst p + snd p) st) as [E|E]; cbn.
    + split; [lia|]. split; [intros ? [= <-]; auto|].
      intros r Hr Hr'. destruct (C r Hr Hr') as [->|]; auto.
    + split; [lia|]. split; [discriminate|].
      intros r Hr Hr'. right. destruct (C r Hr Hr') as [->|]; lia.
  - cbn. split; [lia|]. split; [discriminate|]. intros r Hr Hr'. specialize (PS r Hr). lia.
Qed.

Lemma next_side lo hi l st en : wf lo hi l -> st < en -> en <= hi ->
  if overlaps_fol en (following st en l) then exists b, st <= b < en /\ freel l b else
  let next := match following st en l with
              | Some f => if fst f =? en then Some f else None | None => None end in
  let z := match next with Some f => fst f + snd f | None => en end in
  en <= z <= hi /\ (forall f, next = Some f -> In f l /\ fst f = en) /\
  (forall r, In r l -> st <= fst r -> next = Some r \/ z < fst r).
Proof.
  intros W Hlt Hhi. pose proof (following_spec _ _ _ st en W) as FS.
  destruct (following st en l) as [f|]; cbn [overlaps_fol].
  - destruct FS as (A & B & C). destruct (wf_In W A) as (_ & ? & ?).
    destruct (N.ltb_spec (fst f) en) as [OF|OF].
    { exists (fst f). split; [lia|]. exists f. split; auto. unfold inr; lia. }
    rewrite (proj2 (N.eqb_eq (fst f) en)) by lia. cbn.
    split; [lia|]. split; [intros ? [= <-]; split; [auto|lia]|].
    intros r Hr Hge. destruct (C r Hr Hge) as [->|]; auto.
  - cbn. split; [lia|]. split; [discriminate|]. intros r Hr Hge. destruct (FS r Hr); lia.
Qed.

Definition remove_opt (s : fs) (o : option run) : fs :=
  match o with Some p => remove_run s p | None => s end.

Lemma remove_opt_spec s o : StepInv s -> (forall p, o = Some p -> In p (runs s)) ->
  StepInv (remove_opt s o) /\ dev_bytes (remove_opt s o) = dev_bytes s /\
  (forall r, In r (runs (remove_opt s o)) <-> In r (runs s) /\ o <> Some r) /\
  (forall b, freel (runs s) b <-> freel (runs (remove_opt s o)) b \/ oinr b o).
Proof.
  intros HP Ho. destruct o as [p|]; cbn [remove_opt oinr].
  - specialize (Ho p eq_refl). pose proof (step_wf _ HP) as W.
    split; [apply remove_run_StepInv; auto|]. split; [reflexivity|]. cbn [remove_run runs]. split.
    + intros r. rewrite (In_remove_run _ _ _ p r W Ho). intuition congruence.
    + intros b. rewrite (freel_remove _ _ _ p b W Ho). split.
      * intros H. destruct (inr_dec b p); auto.
      * intros [(H & _)|H]; [exact H|exists p; auto].
  - intuition discriminate.
Qed.

Definition release_ok (st c : N) (s : fs) : Prop :=
  DS <= st /\ 0 < c /\ st + c <= dev_sectors s /\ (forall b, st <= b < st + c -> ~ free s b).

Definition release_post (st c : N) (s s' : fs) : Prop :=
  Inv s' /\ dev_bytes s' = dev_bytes s /\ (forall b, free s' b <-> free s b \/ st <= b < st + c).

(* The merge, for any prev and next with the properties of the two sides. *)
Lemma merge_spec s st c prev next :
  let a := match prev with Some p => fst p | None => st end in
  let z := match next with Some f => fst f + snd f | None => st + c end in
  StepInv s -> 0 < c -> DS <= a <= st -> st + c <= z <= dev_sectors s ->
  (forall p, prev = Some p -> In p (runs s) /\ fst p + snd p = st) ->
  (forall f, next = Some f -> In f (runs s) /\ fst f = st + c) ->
  (forall r, In r (runs s) -> prev = Some r \/ next = Some r \/ fst r + snd r < a \/ z < fst r) ->
  let s2 := remove_opt (remove_opt s prev) next in
  let size1 := match prev with Some p => c + snd p | None => c end in
  let m := (a, match next with Some f => size1 + snd f | None => size1 end) in
  let s3 := insert_run s2 m in
  (forall b, st <= b < st + c -> ~ free s b) /\
  insert_free_space s2 m = FOk s3 /\ release_post st c s (update_fragmentation s3).
Proof.
  intros a z HP Hc La Lz PV NX SEP s2 size1 m s3.
  assert (A3 : forall b, oinr b prev <-> a <= b < st).
  { subst a. destruct prev as [p|]; cbn; [destruct (PV p eq_refl); unfold inr|]; lia. }
  assert (Z2 : forall b, oinr b next <-> st + c <= b < z).
  { subst z. destruct next as [f|]; cbn; [destruct (NX f eq_refl); unfold inr|]; lia. }
  assert (E1 : a + size1 = st + c).
  { subst a size1. destruct prev as [p|]; [destruct (PV p eq_refl)|]; lia. }
  assert (E2 : fst m = a /\ a + snd m = z).
  { subst z m. cbn [fst snd]. destruct next as [f|]; [destruct (NX f eq_refl)|]; lia. }
  destruct E2 as (E0 & E2).
  destruct (remove_opt_spec s prev HP) as (HP1 & D1 & IN1 & F1); [intros p E; apply (PV p E)|].
  destruct (remove_opt_spec _ next HP1) as (HP2 & D2 & IN2 & F2).
  { intros f E. destruct (NX f E) as (A & B). apply IN1. split; auto.
    intros E'. destruct (PV f E'). lia. }
  assert (D : dev_bytes s2 = dev_bytes s) by (unfold s2; congruence).
  assert (IN : forall r, In r (runs s2) -> In r (runs s) /\ prev <> Some r /\ next <> Some r).
  { intros r (H%IN1 & N2)%IN2. tauto. }
  assert (F : forall b, free s b <-> (freel (runs s2) b \/ oinr b next) \/ oinr b prev).
  { intros b. unfold free, s2. rewrite (F1 b), (F2 b). reflexivity. }
  (* only the facts above are used from here on; without the bodies lia has less to carry *)
  change (StepInv s2) in HP2. clearbody a z size1 m s2.
  split.
  { intros b Hb (r & Hr & Hi). unfold inr in Hi.
    destruct (SEP r Hr) as [E|[E|[|]]]; [destruct (PV r E)|destruct (NX r E)| |]; lia. }
  destruct (insert_free_space_ok s2 m HP2) as (E & HP3);
    [lia|lia|rewrite (dev_sectors_same _ _ D); lia| |].
  { intros r Hr. apply IN in Hr. destruct Hr as (Hr & N1 & N2). rewrite E0, E2.
    destruct (SEP r Hr) as [|[|[|]]]; auto; contradiction. }
  split; [exact E|]. apply update_fragmentation_post; [exact HP3|exact D|].
  (* m is prev, the range and next side by side *)
  intros b. unfold s3. cbn [insert_run runs].
  assert (M : inr b m <-> oinr b prev \/ st <= b < st + c \/ oinr b next)
    by (rewrite A3, Z2; unfold inr; lia).
  rewrite freel_insert, M, (F b). clear. tauto.
Qed.

Lemma try_merge_spec st c s : StepInv s -> DS <= st -> 0 < c -> st + c <= dev_sectors s ->
  match try_merge st c s with
  | FErr _ => exists b, st <= b < st + c /\ free s b
  | FOk (s2, m) =>
      (forall b, st <= b < st + c -> ~ free s b) /\
      insert_free_space s2 m = FOk (insert_run s2 m) /\
      release_post st c s (update_fragmentation (insert_run s2 m))
  end.
Proof.
  intros HP L1 L2 L3. pose proof HP as [H1 H2 W _]. pose proof (dev_sectors_le s).
  unfold try_merge. destruct (N.leb_spec U64 (st + c)); [lia|].
  pose proof (prev_side _ _ _ st (st + c) W L1 ltac:(lia)) as SP.
  destruct (overlaps_pre st (preceding st (runs s))); [exact SP|].
  pose proof (next_side _ _ _ st (st + c) W ltac:(lia) L3) as SN.
  destruct (overlaps_fol (st + c) (following st (st + c) (runs s))); [exact SN|].
  destruct SP as (La & PV & SL). destruct SN as (Lz & NX & SR).
  apply (merge_spec s st c _ _ HP L2 La Lz PV NX). intros r Hr.
  destruct (N.lt_ge_cases (fst r) st) as [Hs|Hs]; [destruct (SL r Hr Hs)|destruct (SR r Hr Hs)]; auto.
Qed.

Lemma release_cases st c s : Inv s ->
  (exists e, release st c s = (FErr e, s) /\ ~ release_ok st c s) \/
  (exists s', release st c s = (FOk tt, s') /\ release_ok st c s /\ release_post st c s s').
Proof.
  intros HI. pose proof (Inv_StepInv _ HI) as HP. pose proof (valid_sector_range_iff s st c HP) as V.
  assert (NV : valid_sector_range s st c = false -> ~ release_ok st c s).
  { intros E (A & B & C & _). rewrite (proj2 V) in E by auto. discriminate. }
  unfold release.
  (* the first test repeats the head of valid_sector_range *)
  destruct ((st <? DS) || (c =? 0)) eqn:G.
  { left. eexists. split; [reflexivity|]. apply NV. unfold valid_sector_range. rewrite G. reflexivity. }
  destruct (valid_sector_range s st c); cbn [negb]; [|left; eauto].
  destruct V as ((V1 & V2 & V3) & _); [reflexivity|].
  pose proof (try_merge_spec st c s HP V1 V2 V3) as T.
  destruct (try_merge st c s) as [(s2, m)|e].
  - right. destruct T as (NF & E & P). rewrite E.
    eexists. split; [reflexivity|]. split; [unfold release_ok; auto|exact P].
  - left. exists e. split; [reflexivity|]. destruct T as (b & Hb & Fb).
    intros (_ & _ & _ & NF). exact (NF b Hb Fb).
Qed.

Lemma release_accepts st c s : Inv s -> release_ok st c s ->
  exists s', release st c s = (FOk tt, s') /\ release_post st c s s'.
Proof.
  intros HI OK. destruct (release_cases st c s HI) as [(e & _ & NO)|(s' & E & _ & P)]; [contradiction|eauto].
Qed.

Lemma initialize_Inv d s : initialize d = FOk s -> d < U64 ->
  Inv s /\ dev_bytes s = d /\ (forall b, free s b <-> DS <= b < d / BS).
Proof.
  unfold initialize. intros H Hd.
  destruct (N.leb_spec (d / BS) DS) as [L|L]; [discriminate|].
  assert (HP : StepInv (mkfs [] d 0 0)) by (constructor; simpl; auto).
  destruct (insert_free_space_ok (mkfs [] d 0 0) (DS, d / BS - DS) HP) as (E & [A B C D]);
    [simpl; lia|simpl; lia|unfold dev_sectors; simpl; lia|intros r []|].
  rewrite E in H. injection H as <-. split; [|split; [reflexivity|]].
  - constructor; auto. unfold frag_of. simpl. destruct (_ =? 0); reflexivity.
  - intros b. unfold free, freel, inr. simpl. split.
    + intros (r & [<-|[]] & Hb). simpl in Hb. lia.
    + intros Hb. eexists. split; [left; reflexivity|]. simpl. lia.
Qed.

Lemma alloc_ok_inv n s a s' : Inv s -> alloc n s = (FOk a, s') -> 0 < n /\ alloc_post n s a s'.
Proof.
  intros HI H. destruct (alloc_cases n s HI) as [(_ & E)|[(_ & _ & E)|(Hn & a' & s'' & E & P)]];
    rewrite E in H; try discriminate.
  injection H as <- <-. auto.
Qed.

Lemma fstep_spec s o : Inv s ->
  Inv (fst (fstep s o)) /\ dev_bytes (fst (fstep s o)) = dev_bytes s /\
  forall b, free (fst (fstep s o)) b -> free s b \/ exists a c, o = ORelease a c /\ a <= b < a + c.
Proof.
  intros HI. destruct o as [n|a c]; simpl.
  - destruct (alloc_cases n s HI) as [(_ & E)|[(_ & _ & E)|(_ & a & s' & E & P)]]; rewrite E; simpl; auto.
    destruct P as (_ & _ & _ & I' & D & F). split; [|split]; auto.
    intros b Hb. apply F in Hb. tauto.
  - destruct (release_cases a c s HI) as [(e & E & _)|(s' & E & _ & I' & D & F)]; rewrite E; simpl; auto.
    split; [|split]; auto. intros b Hb. apply F in Hb. destruct Hb; eauto.
Qed.

Lemma frun_spec ops : forall s, Inv s ->
  Inv (frun s ops) /\ dev_bytes (frun s ops) = dev_bytes s /\
  forall b, free (frun s ops) b -> free s b \/ exists a c, In (ORelease a c) ops /\ a <= b < a + c.
Proof.
  induction ops as [|o ops IH]; intros s HI; [simpl; auto|].
  destruct (fstep_spec s o HI) as (I1 & D1 & F1). destruct (IH _ I1) as (I2 & D2 & F2).
  change (frun s (o :: ops)) with (frun (fst (fstep s o)) ops).
  split; [auto|]. split; [congruence|].
  intros b Hb. simpl. destruct (F2 b Hb) as [Hb1|(a & c & Hin & Hr)]; [|right; eauto].
  destruct (F1 b Hb1) as [|(a & c & -> & Hr)]; [auto|right; eauto].
Qed.

Lemma frun_Inv ops : forall s, Inv s -> Inv (frun s ops) /\ dev_bytes (frun s ops) = dev_bytes s.
Proof. intros s HI. destruct (frun_spec ops s HI) as (A & B & _). auto. Qed.

Lemma frun_keeps_used ops : forall s b, Inv s -> ~ free s b ->
  (forall a c, In (ORelease a c) ops -> ~ (a <= b < a + c)) -> ~ free (frun s ops) b.
Proof.
  intros s b HI NF NR Hb. destruct (frun_spec ops s HI) as (_ & _ & F).
  destruct (F b Hb) as [|(a & c & Hin & Hr)]; [auto|exact (NR a c Hin Hr)].
Qed.

Lemma wf_head_free lo hi x t : wf lo hi (x :: t) -> freel (x :: t) (fst x).
Proof. intros (_ & P & _). exists x. split; [left; auto|unfold inr; lia]. Qed.

Lemma wf_head_least lo hi x t b : wf lo hi (x :: t) -> freel (x :: t) b -> fst x <= b.
Proof.
  (* wf bounds only the head from below, so the list is also wf from fst x *)
  intros (_ & W) Hb. assert (W' : wf (fst x) hi (x :: t)) by (split; [apply N.le_refl | exact W]).
  exact (proj1 (freel_ge _ _ _ _ W' Hb)).
Qed.

Lemma freel_tail lo hi x t b : wf lo hi (x :: t) -> (freel t b <-> freel (x :: t) b /\ ~ inr b x).
Proof.
  intros W. destruct (wf_cons _ _ _ _ W) as (_ & Hsep & _). rewrite freel_cons. split; [|tauto].
  intros H. split; [auto|]. destruct H as (r & Hr & Hb). specialize (Hsep r Hr). unfold inr in *. lia.
Qed.

(* If the free set of one wf list lies inside that of another, the other's head starts no later
   and, when both start at the same block, is no shorter: the block after it is not free. *)
Lemma head_le lo hi x t1 y t2 : wf lo hi (x :: t1) -> wf lo hi (y :: t2) ->
  (forall b, freel (x :: t1) b -> freel (y :: t2) b) ->
  fst y <= fst x /\ (fst x = fst y -> snd x <= snd y).
Proof.
  intros W1 W2 SUB.
  destruct (wf_maximal _ _ _ x W1 (or_introl eq_refl)) as (IN1 & _).
  destruct (wf_maximal _ _ _ y W2 (or_introl eq_refl)) as (_ & END2 & _).
  split.
  - apply (wf_head_least lo hi y t2 _ W2), SUB, (wf_head_free lo hi), W1.
  - intros E. destruct (N.le_gt_cases (snd x) (snd y)); auto.
    exfalso. apply END2, SUB, IN1. unfold inr; lia.
Qed.

Lemma wf_canonical hi l1 : forall lo l2, wf lo hi l1 -> wf lo hi l2 ->
  (forall b, freel l1 b <-> freel l2 b) -> l1 = l2.
Proof.
  induction l1 as [|x t1 IH]; intros lo l2 W1 W2 EQ; destruct l2 as [|y t2].
  - reflexivity.
  - exfalso. apply (freel_nil (fst y)), EQ, (wf_head_free lo hi), W2.
  - exfalso. apply (freel_nil (fst x)), EQ, (wf_head_free lo hi), W1.
  - destruct (head_le _ _ _ _ _ _ W1 W2) as (A1 & A2); [intros b; apply EQ|].
    destruct (head_le _ _ _ _ _ _ W2 W1) as (B1 & B2); [intros b; apply EQ|].
    assert (x = y) as -> by (destruct x, y; simpl in *; f_equal; lia).
    f_equal. apply (IH (fst y + snd y + 1)); [apply (wf_cons _ _ _ _ W1)|apply (wf_cons _ _ _ _ W2)|].
    intros b. rewrite (freel_tail _ _ _ _ b W1), (freel_tail _ _ _ _ b W2), EQ. reflexivity.
Qed.

Lemma Inv_canonical s s2 : Inv s -> Inv s2 -> dev_bytes s2 = dev_bytes s ->
  (forall b, free s b <-> free s2 b) -> s2 = s.
Proof.
  intros [D U W T F] [D2 U2 W2 T2 F2] Hd EQ.
  assert (R : runs s = runs s2).
  { apply (wf_canonical (dev_sectors s) _ DS); auto. rewrite <- (dev_sectors_same _ _ Hd). exact W2. }
  destruct s, s2; simpl in *. congruence.
Qed.

Lemma Inv_stats s : Inv s ->
  get_total_free s = sum_sizes (runs s) * BS /\
  get_largest s = max_size (runs s) * BS /\
  get_chunks s = N.of_nat (length (runs s)) /\
  get_fragmentation s = frag_of (runs s).
Proof. intros [A B C D E]. unfold get_total_free, get_largest, get_chunks, get_fragmentation. auto. Qed.

(* sum of sizes = number of free blocks (cardinality by counting over [lo, hi)) *)
Fixpoint count_free (l : list run) (lo : N) (k : nat) : N :=
  match k with
  | O => 0
  | S k' => (if existsb (fun r => (fst r <=? lo) && (lo <? fst r + snd r)) l then 1 else 0) + count_free l (lo + 1) k'
  end.

Lemma covered_spec l b :
  existsb (fun r => (fst r <=? b) && (b <? fst r + snd r)) l = true <-> freel l b.
Proof.
  rewrite existsb_exists. unfold freel, inr.
  split; intros (r & Hr & Hb); exists r; split; auto;
    rewrite andb_true_iff, N.leb_le, N.ltb_lt in *; auto.
Qed.

Lemma count_free_nil lo k : count_free [] lo k = 0.
Proof. revert lo; induction k as [|k IH]; intros lo; [reflexivity|]. cbn [count_free existsb]. rewrite IH. reflexivity. Qed.

(* A run lying before all the others and ending inside the window contributes what the window
   has of it. *)
Lemma count_free_cons x t lo k :
  (forall r, In r t -> fst x + snd x <= fst r) -> fst x + snd x <= lo + N.of_nat k ->
  count_free (x :: t) lo k = fst x + snd x - N.max lo (fst x) + count_free t lo k.
Proof.
  intros H. revert lo; induction k as [|k IH]; intros lo Hk; [cbn [count_free]; lia|].
  cbn [count_free existsb]. rewrite IH by lia.
  destruct (N.leb_spec (fst x) lo), (N.ltb_spec lo (fst x + snd x)); cbn [andb orb]; try lia.
  (* lo lies in x, so in no run of t *)
  destruct (existsb _ t) eqn:E; [exfalso|lia].
  apply covered_spec in E. destruct E as (r & Hr & Hb). specialize (H r Hr). unfold inr in Hb. lia.
Qed.

Lemma sum_count hi l : forall lo, wf lo hi l ->
  forall lo0 k, lo0 <= lo -> hi <= lo0 + N.of_nat k -> sum_sizes l = count_free l lo0 k.
Proof.
  induction l as [|x t IH]; intros lo W lo0 k H1 H2; [rewrite count_free_nil; reflexivity|].
  destruct (wf_cons _ _ _ _ W) as (P & Hsep & Ht). destruct W as (X1 & _ & X3 & _).
  rewrite count_free_cons by (try lia; intros r Hr; specialize (Hsep r Hr); lia).
  cbn [sum_sizes]. rewrite <- (IH _ Ht lo0 k) by lia. lia.
Qed.

Lemma count_free_full x t lo hi k : wf lo hi (x :: t) ->
  count_free (x :: t) (fst x) k = N.of_nat k -> True.
Proof. auto. Qed.

Lemma sum_is_cardinal hi l : forall lo, wf lo hi l -> lo <= hi ->
  sum_sizes l = count_free l lo (N.to_nat (hi - lo)).
Proof. intros lo W H. apply (sum_count hi l lo W); lia. Qed.

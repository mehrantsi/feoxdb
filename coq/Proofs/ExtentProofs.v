(* The pin/retire protocol is safe under every interleaving of any number of readers with the
   retirement pipeline and later owners of the blocks. *)
From Coq Require Import List NArith Arith Lia.
From Feox Require Import Model.Extent Proofs.ListFacts Proofs.SetNthFacts.
Import ListNotations.

Definition pinned (r : rpc) : nat := match r with RPinned | RGot _ => 1 | _ => 0 end.
Fixpoint count (l : list rpc) : nat := match l with [] => 0 | r :: t => pinned r + count t end.

Lemma count_set_nth l i r r' :
  nth_error l i = Some r -> count (set_nth i r' l) + pinned r = count l + pinned r'.
Proof.
  revert i. induction l as [|x t IH]; intros [|i] H; cbn in *; try discriminate.
  - injection H as ->. lia.
  - specialize (IH i H). lia.
Qed.

Definition past_bit (x : wpc) : bool := match x with WIdle => false | _ => true end.
Definition past_check (x : wpc) : bool := match x with WIdle | WBit => false | _ => true end.
Definition before_marker (x : wpc) : bool := match x with WIdle | WBit | WClear1 => true | _ => false end.

Record EInv (s : est) : Prop := {
  ei_count : readers s = count (rs s);
  ei_bit : past_bit (w s) = true -> retired s = true;
  ei_zero : past_check (w s) = true -> readers s = 0;
  ei_data : before_marker (w s) = true -> cont s = CData;
  ei_got : forall i c, nth_error (rs s) i = Some (RGot c) -> c = CData;
  ei_done : forall i c, nth_error (rs s) i = Some (RDone (Some c)) -> c = CData
}.

Lemma pinned_le_count l i r : nth_error l i = Some r -> pinned r <= count l.
Proof. intros H. pose proof (count_set_nth l i r RStart H) as E. cbn in E. lia. Qed.

(* what [ei_got] and [ei_done] say of one reader *)
Definition rpc_ok (r : rpc) : Prop := match r with RGot c | RDone (Some c) => c = CData | _ => True end.

Lemma EInv_rpcs s : EInv s -> Forall rpc_ok (rs s).
Proof.
  intros Hinv. apply Forall_forall. intros r [i Hi]%In_nth_error.
  destruct r as [| |c|[c|]]; cbn; eauto using ei_got, ei_done.
Qed.

Lemma EInv_intro s :
  readers s = count (rs s) -> (past_bit (w s) = true -> retired s = true) ->
  (past_check (w s) = true -> readers s = 0) -> (before_marker (w s) = true -> cont s = CData) ->
  Forall rpc_ok (rs s) -> EInv s.
Proof.
  intros Hc Hb Hz Hd F. rewrite Forall_forall in F.
  constructor; trivial; intros i c Hi; exact (F _ (nth_error_In _ _ Hi)).
Qed.

Lemma einit_EInv n : EInv (einit n).
Proof.
  apply EInv_intro; cbn; try discriminate; try reflexivity.
  - induction n; cbn; auto.
  - apply Forall_forall. intros r ->%repeat_spec. exact I.
Qed.

(* a reader's step: its own control state changes, and the count follows its pin *)
Lemma EInv_set_reader s i r r' n :
  EInv s -> nth_error (rs s) i = Some r -> n + pinned r = readers s + pinned r' -> rpc_ok r' ->
  (past_check (w s) = true -> n = 0) ->
  EInv (mke n (retired s) (cont s) (w s) (set_nth i r' (rs s))).
Proof.
  intros Hinv Hi Hn Hr Hz. apply EInv_intro; cbn; auto using ei_bit, ei_data, Forall_set_nth, EInv_rpcs.
  pose proof (count_set_nth _ _ _ r' Hi). pose proof (ei_count s Hinv). lia.
Qed.

Theorem estep_EInv s a : EInv s -> EInv (estep s a).
Proof.
  intros Hinv. pose proof Hinv as [Hc Hb Hz Hd Hg Hdn]. destruct a as [i| |h]; cbn.
  - destruct (nth_error (rs s) i) as [[| |c|o]|] eqn:Hi; try exact Hinv.
    + (* acquire; the case analysis also rewrites the [retired s] that both new states carry, and
         [EInv_set_reader] is stated with that field: [rewrite <- Hr] puts it back *)
      destruct (retired s) eqn:Hr; rewrite <- Hr; apply (EInv_set_reader s i _ _ _ Hinv Hi); cbn; trivial.
      (* the bit is clear: the retirer has not started *)
      destruct (w s); try discriminate; specialize (Hb eq_refl); congruence.
    + (* pread while pinned: the retirer cannot be past its check, so the blocks hold the record *)
      pose proof (pinned_le_count _ _ _ Hi) as Hpos. cbn in Hpos.
      apply (EInv_set_reader s i _ _ _ Hinv Hi); cbn; trivial.
      apply Hd. destruct (w s); try reflexivity; specialize (Hz eq_refl); lia.
    + (* release + identity check *)
      pose proof (pinned_le_count _ _ _ Hi) as Hpos. cbn in Hpos.
      apply (EInv_set_reader s i _ _ _ Hinv Hi); cbn.
      * lia.
      * destruct c; cbn; trivial.
      * intros Hp. specialize (Hz Hp). lia.
  - destruct (w s) eqn:Hw.
    + constructor; cbn; try assumption; try discriminate; try reflexivity.
    + destruct (Nat.eqb (readers s) 0) eqn:E; [|exact Hinv].
      apply Nat.eqb_eq in E. constructor; cbn; try assumption; intros _; exact E.
    + constructor; cbn; try assumption; try discriminate; intros _; apply Hz; reflexivity.
    + destruct (Nat.eqb (readers s) 0) eqn:E; [|exact Hinv].
      constructor; cbn; try assumption; try discriminate; intros _; apply Hz; reflexivity.
    + constructor; cbn; try assumption; try discriminate; intros _; apply Hz; reflexivity.
    + exact Hinv.
  - destruct (w s) eqn:Hw; try exact Hinv.
    constructor; cbn; try assumption; try discriminate.
Qed.

Theorem erun_EInv sched s : EInv s -> EInv (erun s sched).
Proof. apply fold_left_inv. exact estep_EInv. Qed.

(* every pread issued under a pin returns the generation's own bytes, and every completed read
   returned them or reported the extent stale: never a marker, never another key's record *)
Theorem read_is_genuine n sched i :
  let s := erun (einit n) sched in
  (forall c, nth_error (rs s) i = Some (RGot c) -> c = CData) /\
  (forall r, nth_error (rs s) i = Some (RDone r) -> r = Some CData \/ r = None).
Proof.
  intros s. pose proof (erun_EInv sched _ (einit_EInv n)) as H. fold s in H. split.
  - exact (ei_got _ H i).
  - intros [c|] Hr; [left | now right]. now rewrite (ei_done _ H i c Hr).
Qed.

(* the blocks change only when nobody holds a pin *)
Theorem pinned_not_overwritten s a : EInv s -> cont (estep s a) <> cont s -> readers s = 0.
Proof.
  intros H Hne.
  assert (D : cont (estep s a) = cont s \/ past_check (w s) = true);
    [|destruct D as [D|D]; [contradiction | exact (ei_zero _ H D)]].
  destruct a as [i| |h]; cbn.
  - left. destruct (nth_error (rs s) i) as [[| |c|o]|]; try reflexivity. destruct (retired s); reflexivity.
  - destruct (w s); auto; left; destruct (Nat.eqb (readers s) 0); reflexivity.
  - destruct (w s); auto.
Qed.

(* once the retired bit is set no new reader gets in *)
Theorem no_new_reader_after_bit s i :
  retired s = true -> nth_error (rs s) i = Some RStart ->
  nth_error (rs (estep s (Reader i))) i = Some (RDone None) /\ readers (estep s (Reader i)) = readers s.
Proof.
  intros Hr Hi. cbn. rewrite Hi, Hr. cbn. split; [exact (nth_error_set_nth_same _ _ _ _ Hi) | reflexivity].
Qed.

Local Open Scope N_scope.

Lemma emon_ge evs : forall p j k, emon p evs j = Some k -> j <= k.
Proof.
  induction evs as [|e t IH]; intros p j k H; cbn in H; [discriminate|].
  destruct e; [| |destruct (existsb _ p); [injection H as <-; lia|]]; specialize (IH _ _ _ H); lia.
Qed.

(* the run-time monitor flags exactly a write that overlaps an open pin *)
Theorem emon_flags_overlap pinned0 i s n t :
  emon pinned0 (EWrite s n :: t) i = Some i <-> existsb (fun p => overlaps s n (fst p) (snd p)) pinned0 = true.
Proof.
  cbn. destruct (existsb _ pinned0); [split; reflexivity|].
  split; [|discriminate]. intros H. apply emon_ge in H. lia.
Qed.

Fixpoint pins_after (pinned0 : list (N * N)) (evs : list eev) : list (N * N) :=
  match evs with
  | [] => pinned0
  | EPin s n :: t => pins_after ((s, n) :: pinned0) t
  | EUnpin s n :: t => pins_after (remove_one s n pinned0) t
  | EWrite _ _ :: t => pins_after pinned0 t
  end.

Lemma pins_after_app p a b : pins_after p (a ++ b) = pins_after (pins_after p a) b.
Proof. revert p. induction a as [|e t IH]; intros p; cbn; [reflexivity|]. destruct e; apply IH. Qed.

(* the trace monitor is exact: it returns None iff no write of the trace overlaps a pin that is
   open when the write is issued *)
Theorem emon_none_iff_no_write_into_open_pin evs : forall pinned0 i,
  emon pinned0 evs i = None <->
  forall j s n, nth_error evs j = Some (EWrite s n) ->
    existsb (fun p => overlaps s n (fst p) (snd p)) (pins_after pinned0 (firstn j evs)) = false.
Proof.
  induction evs as [|e t IH]; intros p i; cbn [emon].
  - split; [intros _ [|j] s n H; discriminate | reflexivity].
  - destruct e as [s0 n0|s0 n0|s0 n0].
    1, 2: rewrite IH; split;
      [intros H [|j] s n Hj; [discriminate | exact (H j s n Hj)] | intros H j s n Hj; exact (H (S j) s n Hj)].
    destruct (existsb (fun q => overlaps s0 n0 (fst q) (snd q)) p) eqn:E.
    + split; [discriminate|]. intros H. specialize (H 0%nat s0 n0 eq_refl). cbn in H. congruence.
    + rewrite IH. split; [|intros H j s n Hj; exact (H (S j) s n Hj)].
      intros H [|j] s n Hj; [|exact (H j s n Hj)]. injection Hj as <- <-. exact E.
Qed.

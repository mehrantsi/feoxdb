(* C09 failure handling / C05 ownership through failures: theorems over Model/FailPath.v for every
   fault oracle (every choice of failing device calls).  The allocator, the usage counter and the
   extents handed out form a ledger (Owned) that depends on the extents only as a multiset; the
   queue, the published records and the pending retirements are views of that multiset, and every
   step of the write path moves extents between them or in and out of the ledger.
   OwnershipProofs.OInv states the same partition for a client that only acquires and gives back,
   with pairwise disjointness where Owned has "no block covered twice"; the latter form is the one
   that survives the regrouping and reordering of extents done here (Owned_equiv, Owned_perm). *)
From Coq Require Import List NArith Bool Lia Arith Permutation.
From Feox Require Import Model.FreeSpace Proofs.ListFacts Proofs.FreeSpaceProofs Model.FailPath.
Import ListNotations.
Local Open Scope N_scope.

(* FreeSpaceProofs.inr, for an extent; blk_inb decides it *)
Definition blk_in (b : N) (x : N * N) : Prop := fst x <= b /\ b < fst x + snd x.
Definition blk_inb (b : N) (x : N * N) : bool := (fst x <=? b) && (b <? fst x + snd x).

Lemma blk_inb_spec b x : blk_inb b x = true <-> blk_in b x.
Proof. unfold blk_inb, blk_in. rewrite andb_true_iff, N.leb_le, N.ltb_lt. tauto. Qed.

Lemma blk_inP b x : reflect (blk_in b x) (blk_inb b x).
Proof. apply iff_reflect. symmetry. apply blk_inb_spec. Qed.

Fixpoint cnt (b : N) (l : list (N * N)) : nat :=
  match l with [] => O | x :: t => ((if blk_inb b x then 1 else 0) + cnt b t)%nat end.

Lemma cnt_app b l1 l2 : cnt b (l1 ++ l2) = (cnt b l1 + cnt b l2)%nat.
Proof. induction l1 as [|x t IH]; cbn [cnt app]; [reflexivity | rewrite IH; lia]. Qed.

Lemma cnt_pos b l : (0 < cnt b l)%nat <-> exists x, In x l /\ blk_in b x.
Proof.
  induction l as [|x t IH]; cbn [cnt In]; [split; [lia | intros [x [[] _]]]|].
  destruct (blk_inP b x) as [E|E]; cbn [Nat.add].
  - split; [intros _; exists x; auto | lia].
  - rewrite IH. split; intros [y [Hy Hb]]; exists y; [auto | destruct Hy as [<-|Hy]; [contradiction | auto]].
Qed.

Lemma cnt_zero b l : cnt b l = O <-> forall x, In x l -> ~ blk_in b x.
Proof.
  rewrite <- Nat.le_0_r, Nat.le_ngt, cnt_pos.
  split; [intros H x Hx Hb; apply H; eauto | intros H (x & Hx & Hb); exact (H x Hx Hb)].
Qed.

Lemma cnt_perm b [l l'] : Permutation l l' -> cnt b l = cnt b l'.
Proof. induction 1; cbn [cnt]; lia. Qed.

Fixpoint sum_blocks (l : list (N * N)) : N := match l with [] => 0 | x :: t => snd x + sum_blocks t end.

Lemma sum_blocks_app l1 l2 : sum_blocks (l1 ++ l2) = sum_blocks l1 + sum_blocks l2.
Proof. induction l1 as [|x t IH]; cbn [sum_blocks app]; [reflexivity | rewrite IH; lia]. Qed.

Lemma sum_blocks_perm [l l'] : Permutation l l' -> sum_blocks l = sum_blocks l'.
Proof. induction 1; cbn [sum_blocks]; lia. Qed.

Lemma insert_ext_perm x l : Permutation (insert_ext x l) (x :: l).
Proof.
  induction l as [|y t IH]; cbn [insert_ext]; [reflexivity|].
  destruct (fst x <=? fst y); [reflexivity|]. exact (perm_trans (perm_skip y IH) (perm_swap x y t)).
Qed.

Lemma sort_exts_perm l : Permutation (sort_exts l) l.
Proof.
  unfold sort_exts. induction l as [|x t IH]; cbn [fold_right]; [constructor|].
  exact (perm_trans (insert_ext_perm _ _) (perm_skip x IH)).
Qed.

Fixpoint sorted_start (l : list (N * N)) : Prop :=
  match l with
  | [] => True
  | x :: t => (forall y, In y t -> fst x <= fst y) /\ sorted_start t
  end.

Lemma insert_ext_sorted x l : sorted_start l -> sorted_start (insert_ext x l).
Proof.
  induction l as [|z t IH]; cbn [insert_ext sorted_start]; [intros _; split; [intros y []|exact I]|].
  intros [H1 H2]. destruct (N.leb_spec (fst x) (fst z)) as [E|E]; cbn [sorted_start].
  - split; [|split; assumption]. intros y [<-|Hy]; [exact E | specialize (H1 y Hy); lia].
  - split; [|exact (IH H2)]. intros y Hy.
    destruct (Permutation_in y (insert_ext_perm x t) Hy) as [<-|Hy']; [lia | exact (H1 y Hy')].
Qed.

Lemma sort_exts_sorted l : sorted_start (sort_exts l).
Proof. unfold sort_exts. induction l as [|x t IH]; cbn [fold_right]; [exact I | apply insert_ext_sorted; exact IH]. Qed.

(* non-empty extents in ascending order, each ending before the next starts *)
Fixpoint separated (l : list (N * N)) : Prop :=
  match l with
  | [] => True
  | x :: t => 0 < snd x /\ (forall y, In y t -> fst x + snd x < fst y) /\ separated t
  end.

Lemma separated_not_in x t b : separated (x :: t) -> blk_in b x -> cnt b t = O.
Proof.
  intros (Px & Sx & St) [B1 B2]. apply cnt_zero. intros y Hy [C1 C2]. specialize (Sx y Hy). lia.
Qed.

Definition within (lo hi : N) (x : N * N) : Prop := lo <= fst x /\ 0 < snd x /\ fst x + snd x <= hi.

Lemma cnt_merge b s n m r : cnt b ((s, n + m) :: r) = cnt b ((s, n) :: (s + n, m) :: r).
Proof.
  cbn [cnt]. unfold blk_inb. cbn [fst snd]. rewrite N.add_assoc, (N.leb_antisym b (s + n)).
  destruct (N.leb_spec s b), (N.ltb_spec b (s + n)), (N.ltb_spec b (s + n + m)); cbn [andb negb]; lia.
Qed.

Lemma coalesce_spec lo hi l :
  sorted_start l -> (forall x, In x l -> within lo hi x) -> (forall b, (cnt b l <= 1)%nat) ->
  exists g, coalesce l = Some g /\ (forall y, In y g -> within lo hi y) /\
            sum_blocks g = sum_blocks l /\ forall b, cnt b g = cnt b l.
Proof.
  induction l as [|[s n] t IH]; intros Hs Hw Hc.
  - now exists [].
  - destruct Hs as [Hs1 Hs2].
    destruct IH as (g & Eg & Wg & Sum & Cnt);
      [exact Hs2 | auto using in_cons | intros b; specialize (Hc b); cbn [cnt] in Hc; lia |].
    (* unless the first group is joined to (s, n), the result is (s, n) :: g *)
    assert (Pre : (forall y, In y ((s, n) :: g) -> within lo hi y) /\ sum_blocks ((s, n) :: g) = sum_blocks ((s, n) :: t) /\
                  forall b, cnt b ((s, n) :: g) = cnt b ((s, n) :: t)).
    { split; [intros z [<-|Hz]; auto using in_eq|].
      cbn [sum_blocks cnt]. split; [rewrite Sum; reflexivity | intros b; rewrite Cnt; reflexivity]. }
    cbn [coalesce fst snd]. rewrite Eg. destruct g as [|[s' m] r]; [exists [(s, n)]; split; [reflexivity | exact Pre]|].
    destruct (Hw (s, n) (or_introl eq_refl)) as (Wx1 & Wx2 & Wx3).
    destruct (Wg _ (or_introl eq_refl)) as (_ & Py & Wy). cbn [fst snd] in *.
    (* s' is covered by an extent of t, and those start at or after s *)
    assert (Hin : blk_inb s' (s', m) = true) by (apply blk_inb_spec; unfold blk_in; cbn [fst snd]; lia).
    assert (Hxy : s <= s').
    { assert (P : (0 < cnt s' t)%nat) by (rewrite <- Cnt; cbn [cnt]; rewrite Hin; lia).
      apply cnt_pos in P. destruct P as (z & Hz & Bz & _). specialize (Hs1 z Hz). cbn [fst] in Hs1. lia. }
    destruct (N.ltb_spec s' (s + n)) as [E1|E1].
    + (* overlap: block s' would be covered twice *)
      exfalso. specialize (Hc s'). cbn [cnt] in Hc. rewrite <- Cnt in Hc. cbn [cnt] in Hc. rewrite Hin in Hc.
      rewrite (proj2 (blk_inb_spec s' (s, n))) in Hc by (unfold blk_in; cbn [fst snd]; lia). lia.
    + destruct (N.eqb_spec s' (s + n)) as [->|E2]; [|exists ((s, n) :: (s', m) :: r); split; [reflexivity | exact Pre]].
      exists ((s, n + m) :: r). split; [reflexivity|]. split; [|split].
      * intros z [<-|Hz]; [unfold within; cbn [fst snd]; lia | auto using in_cons].
      * cbn [sum_blocks snd] in *. lia.
      * intros b. rewrite cnt_merge. cbn [cnt]. rewrite <- (Cnt b). reflexivity.
Qed.

Definition ext_ok (f : fs) : N * N -> Prop := within DS (dev_sectors f).

(* the ledger: allocator f, usage counter u and the extents xs handed out.  No block is covered
   twice, a block of the data area is free exactly when no extent covers it, and u counts the
   covered blocks. *)
Record Owned (f : fs) (u : N) (xs : list (N * N)) : Prop := {
  ow_fs : Inv f;
  ow_one : forall b, (cnt b xs <= 1)%nat;
  ow_part : forall b, DS <= b < dev_sectors f -> (free f b <-> cnt b xs = 0%nat);
  ow_ext : forall x, In x xs -> ext_ok f x;
  ow_usage : u = sum_blocks xs
}.
Arguments ow_fs {f u xs}.
Arguments ow_one {f u xs}.
Arguments ow_part {f u xs}.
Arguments ow_ext {f u xs}.
Arguments ow_usage {f u xs}.

(* only the blocks covered, the total and the bounds of the extents matter *)
Lemma Owned_equiv f u xs xs' :
  (forall b, cnt b xs = cnt b xs') -> sum_blocks xs = sum_blocks xs' -> (forall x, In x xs' -> ext_ok f x) ->
  Owned f u xs -> Owned f u xs'.
Proof.
  intros Hc Hs He [I One Part _ Us]. split; [exact I | | | exact He | congruence].
  - intros b. rewrite <- Hc. apply One.
  - intros b Hb. rewrite <- Hc. exact (Part b Hb).
Qed.

Lemma Owned_perm f u xs xs' : Permutation xs xs' -> Owned f u xs -> Owned f u xs'.
Proof.
  intros P W. apply (Owned_equiv f u xs); [intros b; apply cnt_perm, P | apply sum_blocks_perm, P | | exact W].
  intros x Hx. exact (ow_ext W x (Permutation_in x (Permutation_sym P) Hx)).
Qed.

Lemma Owned_free f u xs b : Owned f u xs -> free f b -> cnt b xs = 0%nat.
Proof. intros W Hf. exact (proj1 (ow_part W b (freel_ge _ _ _ _ (inv_wf _ (ow_fs W)) Hf)) Hf). Qed.

Lemma Owned_not_free f u xs b : Owned f u xs -> (0 < cnt b xs)%nat -> ~ free f b.
Proof. intros W H Hf. rewrite (Owned_free _ _ _ _ W Hf) in H. lia. Qed.

Lemma Owned_alloc f u xs n a f' :
  Owned f u xs -> 0 < n -> alloc_post n f a f' -> Owned f' (u + n) ((a, n) :: xs).
Proof.
  intros W Hn (A1 & A2 & A3 & I' & D' & F').
  pose proof (dev_sectors_same _ _ D') as Ds.
  assert (Z : forall b, blk_in b (a, n) -> cnt b xs = 0%nat) by (intros b Eb; exact (Owned_free _ _ _ _ W (A3 b Eb))).
  destruct W as [I One Part Ext Us]. split.
  - exact I'.
  - intros b. cbn [cnt]. destruct (blk_inP b (a, n)) as [Eb|Eb]; [rewrite (Z b Eb); lia | exact (One b)].
  - intros b Hb. rewrite Ds in Hb. cbn [cnt]. rewrite F', (Part b Hb).
    destruct (blk_inP b (a, n)) as [Eb|Eb]; cbn [Nat.add].
    + split; [intros [_ Hno]; destruct (Hno Eb) | discriminate].
    + split; [intros [Hz _]; exact Hz | intros Hz; exact (conj Hz Eb)].
  - unfold ext_ok. rewrite Ds. intros x [<-|Hx]; [unfold within; cbn [fst snd]; lia | exact (Ext x Hx)].
  - cbn [sum_blocks snd]. lia.
Qed.

Lemma Owned_release f u s n xs : Owned f u ((s, n) :: xs) ->
  exists f', release s n f = (FOk tt, f') /\ Owned f' (u - n) xs.
Proof.
  intros W. destruct (ow_ext W (s, n) (or_introl eq_refl)) as (B1 & B2 & B3). cbn [fst snd] in *.
  assert (Rok : release_ok s n f).
  { refine (conj B1 (conj B2 (conj B3 _))). intros b Hb. apply (Owned_not_free _ _ _ _ W).
    cbn [cnt]. rewrite (proj2 (blk_inb_spec b (s, n)) Hb). lia. }
  destruct (release_accepts s n f (ow_fs W) Rok) as (f' & E & I' & D' & F').
  exists f'. split; [exact E|]. destruct W as [I One Part Ext Us]. split.
  - exact I'.
  - intros b. specialize (One b). cbn [cnt] in One. lia.
  - intros b Hb. rewrite (dev_sectors_same _ _ D') in Hb. rewrite F', (Part b Hb). specialize (One b). cbn [cnt] in *.
    destruct (blk_inP b (s, n)) as [Eb|Eb]; cbn [Nat.add] in *.
    + split; [lia | intros _; right; exact Eb].
    + split; [intros [H|H]; [exact H | contradiction] | intros H; left; exact H].
  - intros x Hx. unfold ext_ok. rewrite (dev_sectors_same _ _ D'). apply Ext. right. exact Hx.
  - cbn [sum_blocks snd] in Us. lia.
Qed.

Lemma release_groups_owned g : forall f u xs, Owned f u (g ++ xs) ->
  exists f', release_groups f u g = (f', u - sum_blocks g, true) /\ Owned f' (u - sum_blocks g) xs.
Proof.
  induction g as [|[s n] t IH]; intros f u xs W; cbn [release_groups sum_blocks fst snd app] in *.
  - exists f. rewrite N.sub_0_r. auto.
  - destruct (Owned_release _ _ _ _ _ W) as (f1 & E & W1). rewrite E.
    destruct (IH f1 (u - n) xs W1) as (f' & E' & W'). exists f'. rewrite E', N.sub_add_distr. auto.
Qed.

Lemma in_group_spec s groups : in_group s groups = true <-> (0 < cnt s groups)%nat.
Proof.
  unfold in_group. rewrite existsb_exists, cnt_pos. setoid_rewrite <- blk_inb_spec. reflexivity.
Qed.

(* release_scrubbed_allocations after coalesce_extents: the extents l leave the ledger *)
Lemma release_coalesced f u l xs : Owned f u (l ++ xs) ->
  exists g f', coalesce (sort_exts l) = Some g /\
    release_groups f u g = (f', u - sum_blocks l, true) /\
    Owned f' (u - sum_blocks l) xs /\ forall b, in_group b g = true <-> (0 < cnt b l)%nat.
Proof.
  intros W. pose proof (sort_exts_perm l) as P.
  destruct (coalesce_spec DS (dev_sectors f) (sort_exts l)) as (g & Eg & Wg & Sum & Cnt).
  - apply sort_exts_sorted.
  - intros x Hx. apply (ow_ext W), in_or_app. left. exact (Permutation_in x P Hx).
  - intros b. rewrite (cnt_perm b P). pose proof (ow_one W b) as H. rewrite cnt_app in H. lia.
  - rewrite (sum_blocks_perm P) in Sum.
    assert (Cnt' : forall b, cnt b g = cnt b l) by (intros b; rewrite Cnt; apply cnt_perm, P).
    destruct (release_groups_owned g f u xs) as (f' & E & W').
    { apply (Owned_equiv f u (l ++ xs)); [intros b; rewrite !cnt_app, Cnt'; reflexivity | rewrite !sum_blocks_app, Sum; reflexivity | | exact W].
      intros x Hx. apply in_app_or in Hx. destruct Hx as [Hx|Hx]; [exact (Wg x Hx) | apply (ow_ext W), in_or_app; auto]. }
    exists g, f'. rewrite <- Sum. refine (conj Eg (conj E (conj W' _))).
    intros b. rewrite in_group_spec, Cnt'. reflexivity.
Qed.

Lemma exts_of_app l1 l2 : exts_of (l1 ++ l2) = exts_of l1 ++ exts_of l2.
Proof. induction l1 as [|e t IH]; cbn [exts_of app]; [reflexivity|]. destruct (ext_of e); cbn [app]; rewrite IH; reflexivity. Qed.

Lemma in_exts_of x l : In x (exts_of l) <-> exists e, In e l /\ ext_of e = Some x.
Proof.
  induction l as [|e t IH]; cbn [exts_of In]; [split; [intros [] | intros [e [[] _]]]|].
  destruct (ext_of e) as [y|] eqn:E; cbn [In]; rewrite IH; split.
  - intros [<-|[e' [He' Ee']]]; [exists e; auto | exists e'; auto].
  - intros [e' [[<-|He'] Ee']]; [left; congruence | right; exists e'; auto].
  - intros [e' [He' Ee']]. exists e'. auto.
  - intros [e' [[<-|He'] Ee']]; [congruence | exists e'; auto].
Qed.

Lemma exts_of_map g l : (forall e, ext_of (g e) = ext_of e) -> exts_of (map g l) = exts_of l.
Proof. intros H. induction l as [|e t IH]; cbn [map exts_of]; [reflexivity|]. rewrite H, IH. reflexivity. Qed.

Lemma exts_of_mid_some pre e t x D :
  ext_of e = Some x -> Permutation (x :: exts_of (pre ++ t) ++ D) (exts_of (pre ++ e :: t) ++ D).
Proof. intros E. rewrite !exts_of_app. cbn [exts_of]. rewrite E, <- !app_assoc. apply Permutation_middle. Qed.

Lemma exts_of_mid_none pre e t : ext_of e = None -> exts_of (pre ++ e :: t) = exts_of (pre ++ t).
Proof. intros E. rewrite !exts_of_app. cbn [exts_of]. rewrite E. reflexivity. Qed.

Lemma in_mid_swap {A} (pre t : list A) e e' x : In x (pre ++ e' :: t) -> x = e' \/ In x (pre ++ e :: t).
Proof. rewrite !in_app_iff. cbn [In]. intuition auto. Qed.

Lemma rev_cons_app {A} (acc : list A) e t : rev acc ++ e :: t = rev (e :: acc) ++ t.
Proof. cbn [rev]. rewrite <- app_assoc. reflexivity. Qed.

Definition flags_ok (e : pent) : Prop := pe_quar e = true -> pe_res e <> None.

(* the ledger holds the reservations of the queue q together with D, the extents owned outside
   the queue: published records and whatever a caller counts as owned elsewhere *)
Record Core (f : fs) (u : N) (q : list pent) (D : list (N * N)) : Prop := {
  co_own : Owned f u (exts_of q ++ D);
  co_flags : forall e, In e q -> flags_ok e
}.
Arguments co_own {f u q D}.
Arguments co_flags {f u q D}.

Lemma Core_perm f u q D q' D' :
  Permutation (exts_of q ++ D) (exts_of q' ++ D') -> (forall e, In e q' -> flags_ok e) ->
  Core f u q D -> Core f u q' D'.
Proof. intros P Hf C. split; [exact (Owned_perm _ _ _ _ P (co_own C)) | exact Hf]. Qed.

Lemma Core_map g f u q D :
  (forall e, ext_of (g e) = ext_of e) -> (forall e, In e q -> flags_ok (g e)) -> Core f u q D -> Core f u (map g q) D.
Proof.
  intros He Hf C. apply (Core_perm f u q D); [rewrite (exts_of_map g q He); reflexivity | | exact C].
  intros e' He'. apply in_map_iff in He'. destruct He' as [e [<- Hin]]. exact (Hf e Hin).
Qed.

Definition fresh (e : pent) (r : option N) : pent := mkpe (pe_id e) (pe_blocks e) r false false.

Lemma Core_alloc f u pre e t D a f1 :
  pe_res e = None -> Core f u (pre ++ e :: t) D -> 0 < pe_blocks e -> alloc_post (pe_blocks e) f a f1 ->
  Core f1 (u + pe_blocks e) (pre ++ fresh e (Some a) :: t) D.
Proof.
  intros R [W Fl] Hn Post.
  rewrite (exts_of_mid_none pre e t) in W by (unfold ext_of; rewrite R; reflexivity).
  pose proof (Owned_alloc _ _ _ _ _ _ W Hn Post) as W1. split.
  - exact (Owned_perm _ _ _ _ (exts_of_mid_some pre (fresh e (Some a)) t _ D eq_refl) W1).
  - intros x Hx. destruct (in_mid_swap pre t e _ x Hx) as [->|Hx']; [discriminate | exact (Fl x Hx')].
Qed.

Lemma Core_release f u pre e t D s :
  pe_res e = Some s -> Core f u (pre ++ e :: t) D ->
  exists f1, release s (pe_blocks e) f = (FOk tt, f1) /\
             Core f1 (u - pe_blocks e) (pre ++ fresh e None :: t) D.
Proof.
  intros R [W Fl].
  assert (P : Permutation (exts_of (pre ++ e :: t) ++ D) ((s, pe_blocks e) :: exts_of (pre ++ t) ++ D)).
  { apply Permutation_sym, exts_of_mid_some. unfold ext_of. rewrite R. reflexivity. }
  destruct (Owned_release _ _ _ _ _ (Owned_perm _ _ _ _ P W)) as (f1 & E & W1).
  exists f1. split; [exact E|]. split.
  - rewrite (exts_of_mid_none pre (fresh e None) t eq_refl). exact W1.
  - intros x Hx. destruct (in_mid_swap pre t e _ x Hx) as [->|Hx']; [discriminate | exact (Fl x Hx')].
Qed.

Lemma alloc_result n f : Inv f ->
  (exists err, alloc n f = (FErr err, f)) \/ (0 < n /\ exists a f', alloc n f = (FOk a, f') /\ alloc_post n f a f').
Proof. intros I. destruct (alloc_cases n f I) as [[_ E]|[(_ & _ & E)|H]]; [left | left | right]; eauto. Qed.

(* acc holds the entries already passed, in reverse.  The ledger follows; the ids stay, in order;
   if every allocation fitted (and acc was reserved throughout) every entry ends with a
   reservation; an entry that came with one is in the result unchanged *)
Lemma alloc_all_spec D : forall todo acc f u f' u' q' fits,
  Core f u (rev acc ++ todo) D ->
  alloc_all f u acc todo = ((f', u', q'), fits) ->
  Core f' u' q' D /\ map pe_id q' = map pe_id (rev acc ++ todo) /\
  (fits = true -> Forall (fun e => pe_res e <> None) acc -> Forall (fun e => pe_res e <> None) q') /\
  (forall e, In e (rev acc ++ todo) -> pe_res e <> None -> In e q').
Proof.
  induction todo as [|e t IH]; intros acc f u f' u' q' fits C H; cbn [alloc_all] in H.
  - inversion H; subst. rewrite app_nil_r in *. split; [exact C|]. split; [reflexivity|]. split; [|auto].
    intros _ Ha. apply Forall_rev, Ha.
  - destruct (pe_res e) as [s|] eqn:R.
    + rewrite rev_cons_app in *. destruct (IH _ _ _ _ _ _ _ C H) as (A & Cc & Dd & Ee).
      refine (conj A (conj Cc (conj _ Ee))).
      intros Hf Ha. apply (Dd Hf). constructor; [congruence | exact Ha].
    + destruct (alloc_result (pe_blocks e) f (ow_fs (co_own C))) as [[err E]|(P & a & f1 & E & Post)]; rewrite E in H.
      * inversion H; subst. easy.
      * pose proof (Core_alloc _ _ _ _ _ _ _ _ R C P Post) as C1.
        assert (Keep : forall x, In x (rev acc ++ e :: t) -> pe_res x <> None -> In x (rev (fresh e (Some a) :: acc) ++ t)).
        { intros x Hx Hr. rewrite <- rev_cons_app. destruct (in_mid_swap _ _ (fresh e (Some a)) _ x Hx) as [->|Hx']; [congruence | exact Hx']. }
        rewrite rev_cons_app in C1. destruct (IH _ _ _ _ _ _ _ C1 H) as (A & Cc & Dd & Ee).
        split; [exact A|].
        split; [rewrite Cc, <- rev_cons_app, !map_app; reflexivity|].
        split; [|auto].
        intros Hf Ha. apply (Dd Hf). constructor; [discriminate | exact Ha].
Qed.

(* release_allocations *)
Lemma release_clean_spec D : forall l pre f u f' u' l',
  Core f u (pre ++ l) D -> release_clean f u l = (f', u', l') ->
  Core f' u' (pre ++ l') D /\ map pe_id l' = map pe_id l /\
  (forall e, In e l -> pe_dirty e = true -> In e l') /\
  (forall e, In e l' -> pe_res e <> None -> pe_dirty e = true).
Proof.
  induction l as [|e t IH]; intros pre f u f' u' l' C H; cbn [release_clean] in H.
  - inversion H; subst. easy.
  - (* the entry is kept as it is, or gives its extent back *)
    assert (Step : exists f1 u1 e1 t1, release_clean f1 u1 t = (f', u', t1) /\ l' = e1 :: t1 /\
                     Core f1 u1 (pre ++ e1 :: t) D /\ pe_id e1 = pe_id e /\
                     (e1 = e /\ (pe_res e <> None -> pe_dirty e = true) \/ pe_res e1 = None /\ pe_dirty e = false)).
    { destruct (pe_res e) as [s|] eqn:R; [destruct (pe_dirty e) eqn:Dy|].
      2:{ destruct (Core_release _ _ _ _ _ _ _ R C) as (f1 & E1 & C1). rewrite E1 in H.
          destruct (release_clean f1 (u - pe_blocks e) t) as [[f2 u2] t2] eqn:E2. inversion H; subst.
          exists f1, (u - pe_blocks e), (fresh e None), t2. auto 10. }
      all: destruct (release_clean f u t) as [[f2 u2] t2] eqn:E2; inversion H; subst; exists f, u, e, t2.
      all: assert (pe_res e <> None -> pe_dirty e = true) by congruence; auto 10. }
    destruct Step as (f1 & u1 & e1 & t1 & E & -> & C1 & Id & Hd).
    replace (pre ++ e1 :: t) with ((pre ++ [e1]) ++ t) in C1 by (rewrite <- app_assoc; reflexivity).
    destruct (IH _ _ _ _ _ _ C1 E) as (A & Cc & Dd & Ee). rewrite <- app_assoc in A.
    split; [exact A|]. split; [cbn [map]; rewrite Cc, Id; reflexivity|]. split.
    + intros x [<-|Hx] Hy; [destruct Hd as [[-> _]|[_ Hn]]; [left; reflexivity | congruence] | right; exact (Dd x Hx Hy)].
    + intros x [<-|Hx] Hr; [destruct Hd as [[-> Hk]|[Hn _]]; [exact (Hk Hr) | congruence] | exact (Ee x Hx Hr)].
Qed.

Definition scrubbable (batch : list pent) : list pent := filter (fun e => negb (pe_quar e)) batch.

Lemma exts_scrub_split batch :
  Permutation (exts_of batch) (exts_of (scrubbable batch) ++ exts_of (map clear_scrubbed batch)).
Proof.
  unfold scrubbable. induction batch as [|e t IH]; [constructor|]. cbn [filter map].
  unfold clear_scrubbed at 1. destruct (pe_quar e); cbn [negb exts_of].
  - destruct (ext_of e); [apply Permutation_cons_app|]; exact IH.
  - change (ext_of (mkpe (pe_id e) (pe_blocks e) None false false)) with (@None (N * N)).
    destruct (ext_of e); [apply perm_skip|]; exact IH.
Qed.

Lemma quarantine_fields e :
  pe_id (quarantine e) = pe_id e /\ pe_res (quarantine e) = pe_res e /\ pe_dirty (quarantine e) = pe_dirty e /\
  ext_of (quarantine e) = ext_of e.
Proof. unfold quarantine, ext_of. destruct (pe_res e) eqn:R; cbn; rewrite ?R; auto. Qed.

Lemma quarantine_flags e : flags_ok e -> flags_ok (quarantine e).
Proof. unfold flags_ok, quarantine. destruct (pe_res e); cbn; [congruence | auto]. Qed.

Lemma quarantine_quar e : pe_quar e = true -> quarantine e = e.
Proof. unfold quarantine. destruct e as [i b [s|] d q]; cbn; [intros ->|]; reflexivity. Qed.

Lemma clear_scrubbed_quar e : pe_quar e = true -> clear_scrubbed e = e.
Proof. unfold clear_scrubbed. intros ->. reflexivity. Qed.

Lemma clear_scrubbed_res e : pe_res (clear_scrubbed e) <> None -> pe_quar e = true.
Proof. unfold clear_scrubbed. destruct (pe_quar e); [reflexivity | cbn; congruence]. Qed.

Lemma clear_scrubbed_flags e : flags_ok e -> flags_ok (clear_scrubbed e).
Proof. unfold flags_ok, clear_scrubbed. destruct (pe_quar e); cbn; [auto | congruence]. Qed.

Lemma in_remove_exts gone l x : In x (remove_exts gone l) -> In x l /\ in_group (fst x) gone = false.
Proof.
  induction l as [|y t IH]; cbn [remove_exts In]; [intros []|]. destruct (in_group (fst y) gone) eqn:E.
  - intros H. destruct (IH H). auto.
  - intros [<-|H]; [auto | destruct (IH H); auto].
Qed.

Lemma in_group_start x l : In x l -> 0 < snd x -> in_group (fst x) l = true.
Proof. intros Hx Hp. apply in_group_spec, cnt_pos. exists x. split; [exact Hx | unfold blk_in; lia]. Qed.

Section WithOracle.
Variable fault : N -> bool.

(* op changes nothing but the call counter.  upd_calls (upd_calls st c) c' converts to
   upd_calls st c': where one operation runs after another, the lemma of the second at the
   intermediate state closes the goal as it stands *)
Definition only_calls (op : fstate -> bool * fstate) : Prop :=
  forall st, exists ok c, op st = (ok, upd_calls st c).

Lemma upd_calls_self st : st = upd_calls st (f_calls st).
Proof. destruct st. reflexivity. Qed.

Lemma ret_only b : only_calls (fun st => (b, st)).
Proof. intros st. exists b, (f_calls st). rewrite <- upd_calls_self. reflexivity. Qed.

Lemma call_only : only_calls (call fault).
Proof. intros st. eexists _, _. reflexivity. Qed.

Lemma write_and_sync_only : only_calls (write_and_sync fault).
Proof.
  intros st. unfold write_and_sync. destruct (call_only st) as (ok & c & ->).
  destruct ok; [exact (call_only _) | eexists _, _; reflexivity].
Qed.

Lemma writes_only n : only_calls (writes fault n).
Proof.
  induction n as [|k IH]; [apply ret_only|]. intros st. cbn [writes]. destruct (call_only st) as (ok & c & ->).
  destruct ok; [exact (IH _) | eexists _, _; reflexivity].
Qed.

Lemma writes_and_sync_only n : only_calls (writes_and_sync fault n).
Proof.
  intros st. unfold writes_and_sync. destruct (writes_only n st) as (ok & c & ->).
  destruct ok; [exact (call_only _) | eexists _, _; reflexivity].
Qed.

Lemma data_phase_only tries n : only_calls (data_phase fault tries n).
Proof.
  induction tries as [|k IH]; [apply ret_only|]. intros st. cbn [data_phase]. destruct (writes_and_sync_only n st) as (ok & c & ->).
  destruct ok; [eexists _, _; reflexivity | exact (IH _)].
Qed.

Lemma scrub_calls_only groups : only_calls (scrub_calls fault groups).
Proof.
  intros st. unfold scrub_calls. destruct (write_and_sync_only st) as (ok1 & c1 & ->).
  destruct ok1; cbn [negb]; [|eexists _, _; reflexivity].
  destruct (writes_and_sync_only (total_marker_writes groups) (upd_calls st c1)) as (ok2 & c2 & ->).
  destruct ok2; cbn [negb]; [exact (write_and_sync_only _) | eexists _, _; reflexivity].
Qed.

(* X: extents owned by somebody else (records deleted and waiting for their retirement) *)
Variable X : list (N * N).

(* the ledger holds the queue's reservations, the published records and X; an extent that may
   hold bytes of a failed batch is still reserved by a queued entry; an entry with a reservation
   is dirty *)
Record FInv (st : fstate) : Prop := {
  fv_core : Core (f_fs st) (f_usage st) (f_queue st) (map snd (f_durable st) ++ X);
  fv_may : forall x, In x (f_maydata st) -> In x (exts_of (f_queue st));
  fv_dirty : forall e, In e (f_queue st) -> pe_res e <> None -> pe_dirty e = true
}.

Lemma FInv_calls st c : FInv st -> FInv (upd_calls st c).
Proof. intros [C M Dt]. exact (Build_FInv (upd_calls st c) C M Dt). Qed.

(* quarantine_allocations, with whatever the poison flag and the call counter become *)
Lemma FInv_quarantine st p c : FInv st ->
  let st' := mkfst (f_fs st) (map quarantine (f_queue st)) (f_durable st) (f_usage st) p c (f_maydata st) in
  FInv st' /\ map pe_id (f_queue st') = map pe_id (f_queue st) /\
  (forall e, In e (f_queue st) -> pe_quar e = true -> In e (f_queue st')).
Proof.
  intros [C M Dt]. assert (Ex : forall e, ext_of (quarantine e) = ext_of e) by (intros e; apply quarantine_fields).
  cbn [f_queue]. split; [split; cbn [f_fs f_queue f_durable f_usage f_maydata]|split].
  - apply Core_map; [exact Ex | | exact C]. intros e He. apply quarantine_flags, (co_flags C e He).
  - rewrite (exts_of_map _ _ Ex). exact M.
  - intros e' He'. apply in_map_iff in He'. destruct He' as [e [<- He]].
    destruct (quarantine_fields e) as (_ & -> & -> & _). exact (Dt e He).
  - rewrite map_map. apply map_ext. intros e. apply quarantine_fields.
  - intros e He Hq. rewrite <- (quarantine_quar e Hq). apply in_map, He.
Qed.

Lemma fail_batch_spec st st' r :
  FInv st -> fail_batch fault st (f_queue st) = (st', r) ->
  FInv st' /\ r <> ROk /\ f_durable st' = f_durable st /\ map pe_id (f_queue st') = map pe_id (f_queue st) /\
  (forall e, In e (f_queue st) -> pe_quar e = true -> In e (f_queue st')).
Proof.
  intros I H. unfold fail_batch in H. fold (scrubbable (f_queue st)) in H.
  set (batch := f_queue st) in *. set (l := exts_of (scrubbable batch)) in *.
  pose proof (co_own (fv_core _ I)) as W. fold batch in W.
  apply (Owned_perm _ _ _ _ (Permutation_app_tail _ (exts_scrub_split batch))) in W. fold l in W. rewrite <- app_assoc in W.
  destruct (release_coalesced _ _ _ _ W) as (g & f' & Eg & Er & W' & Hg). rewrite Eg in H.
  assert (Hc : exists ok c, match g with [] => write_and_sync fault st | _ :: _ => scrub_calls fault g st end = (ok, upd_calls st c))
    by (destruct g; [apply write_and_sync_only | apply scrub_calls_only]).
  destruct Hc as (ok & c & Ec). rewrite Ec in H. cbn [upd_calls f_fs f_queue f_durable f_usage f_poison f_calls f_maydata] in H.
  destruct ok; cbn [negb] in H.
  - (* the scrub went through: its groups are given back, the entries lose their reservations *)
    rewrite Er in H. inversion H; subst st' r. cbn [f_queue f_durable].
    split; [split; cbn [f_fs f_queue f_durable f_usage f_maydata]|].
    + split; [exact W'|]. intros e' He'. apply in_map_iff in He'. destruct He' as [e [<- He]].
      apply clear_scrubbed_flags, (co_flags (fv_core _ I) e He).
    + (* what may still hold bytes of the batch belongs to entries the scrub left alone *)
      intros x Hx. apply in_remove_exts in Hx. destruct Hx as [Hx Hgx]. apply (fv_may _ I) in Hx.
      apply (Permutation_in x (exts_scrub_split batch)), in_app_or in Hx. destruct Hx as [Hl|Hc]; [exfalso|exact Hc].
      destruct (ow_ext W x (in_or_app _ _ _ (or_introl Hl))) as (_ & Px & _).
      rewrite (proj2 (Hg (fst x))) in Hgx; [discriminate | apply in_group_spec, in_group_start; assumption].
    + intros e' He' Hr. apply in_map_iff in He'. destruct He' as [e [<- He]].
      rewrite (clear_scrubbed_quar e (clear_scrubbed_res e Hr)) in Hr |- *. exact (fv_dirty _ I e He Hr).
    + split; [discriminate|]. split; [reflexivity|].
      split; [rewrite map_map; apply map_ext; intros e; unfold clear_scrubbed; destruct (pe_quar e); reflexivity|].
      intros e He Hq. rewrite <- (clear_scrubbed_quar e Hq). apply in_map, He.
  - (* the scrub failed: everything is quarantined, the device poisoned *)
    inversion H; subst st' r. destruct (FInv_quarantine st true c I) as (Iq & Idq & Qq). easy.
Qed.

Lemma publish_exts batch : (forall e, In e batch -> pe_res e <> None) ->
  map snd (publish batch) = exts_of batch /\ map fst (publish batch) = map pe_id batch.
Proof.
  induction batch as [|e t IH]; intros H; [split; reflexivity|].
  destruct (IH (fun x Hx => H x (or_intror Hx))) as [A B]. pose proof (H e (or_introl eq_refl)) as R.
  unfold publish in *. cbn [fold_right exts_of]. unfold ext_of.
  destruct (pe_res e) as [s|]; [|congruence]. cbn [map fst snd]. rewrite A, B. split; reflexivity.
Qed.

Lemma mark_dirty_dirty e : pe_dirty e = true -> mark_dirty e = e.
Proof. destruct e. cbn. intros ->. reflexivity. Qed.

(* one pass of the worker: everything is published, or nothing is and every entry is still queued *)
Lemma attempt_spec st st' r : FInv st -> attempt fault st = (st', r) ->
  FInv st' /\ (f_poison st = true -> f_poison st' = true) /\
  (r = ROk /\ f_queue st' = [] /\
     (exists pub, f_durable st' = pub ++ f_durable st /\ map fst pub = map pe_id (f_queue st))
   \/ r <> ROk /\ f_durable st' = f_durable st /\ map pe_id (f_queue st') = map pe_id (f_queue st) /\
      (forall e, In e (f_queue st) -> pe_quar e = true -> In e (f_queue st'))).
Proof.
  intros I H. unfold attempt in H. pose proof I as [C M Dt].
  destruct (f_queue st) as [|e0 t0] eqn:Q.
  - inversion H; subst st' r. split; [exact I|]. split; [tauto|]. left. rewrite Q. repeat split. now exists [].
  - set (q := e0 :: t0) in *.
    destruct (alloc_all (f_fs st) (f_usage st) [] q) as [[[f1 u1] q1] fits] eqn:EA.
    destruct (alloc_all_spec _ q [] _ _ _ _ _ _ C EA) as (C1 & Id1 & Fit1 & Keep1). cbn [rev app] in Id1, Keep1.
    (* the entries that held a reservation are still there, and dirty *)
    assert (Old : forall e, In e q -> pe_res e <> None -> In e q1 /\ pe_dirty e = true) by auto.
    assert (Qk : forall e, In e q -> pe_quar e = true -> In e q1 /\ pe_dirty e = true)
      by (intros e He Hq; exact (Old e He (co_flags C e He Hq))).
    assert (May : forall x, In x (f_maydata st) -> exists e, (In e q1 /\ pe_dirty e = true) /\ ext_of e = Some x).
    { intros x Hx. apply M, in_exts_of in Hx. destruct Hx as (e & He & Ee). exists e. split; [|exact Ee].
      apply (Old e He). unfold ext_of in Ee. destruct (pe_res e); discriminate. }
    destruct fits; cbn [negb] in H.
    2:{ (* the allocator refused: clean reservations go back, everything is requeued *)
      destruct (release_clean f1 u1 q1) as [[f2 u2] q2] eqn:ER. inversion H; subst st' r.
      destruct (release_clean_spec _ q1 [] _ _ _ _ _ C1 ER) as (C2 & Id2 & Keep2 & Only2). cbn [app] in C2.
      cbn [f_queue f_durable f_poison].
      split; [split; cbn [f_fs f_queue f_durable f_usage f_maydata]|].
      - exact C2.
      - intros x Hx. destruct (May x Hx) as (e & [He Hd] & Ee). apply in_exts_of. exists e. auto.
      - exact Only2.
      - split; [tauto|]. right. split; [discriminate|]. split; [reflexivity|].
        split; [congruence|]. intros e He Hq. destruct (Qk e He Hq); auto. }
    (* every entry has an extent; all are marked dirty *)
    assert (Res1 : forall e, In e q1 -> pe_res e <> None) by (apply Forall_forall, Fit1; [reflexivity | constructor]).
    set (batch := map mark_dirty q1) in *.
    assert (Resb : forall e, In e batch -> pe_res e <> None).
    { intros e He. apply in_map_iff in He. destruct He as [e1 [<- He1]]. exact (Res1 e1 He1). }
    assert (I1 : forall p c m, (forall x, In x m -> In x (exts_of batch ++ f_maydata st)) ->
                 FInv (mkfst f1 batch (f_durable st) u1 p c m)).
    { intros p c m Hm. split; cbn [f_fs f_queue f_durable f_usage f_maydata].
      - apply Core_map; [reflexivity | intros e He _; exact (Res1 e He) | exact C1].
      - intros x Hx. apply Hm, in_app_or in Hx. destruct Hx as [Hx|Hx]; [exact Hx|].
        unfold batch. rewrite exts_of_map by reflexivity.
        destruct (May x Hx) as (e & [He _] & Ee). apply in_exts_of. exists e. auto.
      - intros e He _. apply in_map_iff in He. destruct He as [e1 [<- _]]. reflexivity. }
    assert (Idb : map pe_id batch = map pe_id q) by (unfold batch; rewrite map_map; exact Id1).
    assert (Qkb : forall e, In e q -> pe_quar e = true -> In e batch).
    { intros e He Hq. destruct (Qk e He Hq) as [H1 Hd]. apply in_map_iff. exists e. split; [exact (mark_dirty_dirty e Hd) | exact H1]. }
    pose proof (fun x (Hx : In x (f_maydata st)) => in_or_app (exts_of batch) _ x (or_intror Hx)) as M0.
    destruct (f_poison st) eqn:Po.
    + (* the device is poisoned: the batch is quarantined without a device call *)
      inversion H; subst st' r. destruct (FInv_quarantine _ true (f_calls st) (I1 true (f_calls st) _ M0)) as (Iq & Idq & Qq).
      cbn [f_queue] in Idq, Qq. split; [exact Iq|].
      split; [reflexivity|]. right. split; [discriminate|]. split; [reflexivity|].
      split; [exact (eq_trans Idq Idb) | auto].
    + (* the three places where the batch can fail *)
      match goal with |- ?G =>
        assert (Fail : forall c m, (forall x, In x m -> In x (exts_of batch ++ f_maydata st)) ->
                  fail_batch fault (mkfst f1 batch (f_durable st) u1 false c m) batch = (st', r) -> G) end.
      { intros c m Hm Hf.
        destruct (fail_batch_spec _ st' r (I1 false c m Hm) Hf) as (Iy & Ry & Dy & Idy & Qy).
        cbn [f_queue f_durable] in Dy, Idy, Qy.
        split; [exact Iy|]. split; [discriminate|]. right. split; [exact Ry|]. split; [exact Dy|].
        split; [exact (eq_trans Idy Idb) | auto]. }
      destruct (write_and_sync_only (mkfst f1 batch (f_durable st) u1 false (f_calls st) (f_maydata st))) as (ok_i & c2 & E2).
      rewrite E2 in H. unfold upd_calls in H. cbn [f_fs f_queue f_durable f_usage f_poison f_calls f_maydata] in H.
      destruct ok_i; cbn [negb] in H; [|exact (Fail _ _ M0 H)].
      destruct (data_phase_only 3 (length batch) (mkfst f1 batch (f_durable st) u1 false c2 (exts_of batch ++ f_maydata st))) as (ok_d & c4 & E4).
      rewrite E4 in H. unfold upd_calls in H. cbn [f_fs f_queue f_durable f_usage f_poison f_calls f_maydata] in H.
      destruct ok_d; cbn [negb] in H; [|exact (Fail _ _ (fun x Hx => Hx) H)].
      destruct (write_and_sync_only (mkfst f1 batch (f_durable st) u1 false c4 (exts_of batch ++ f_maydata st))) as (ok_c & c5 & E5).
      rewrite E5 in H. unfold upd_calls in H. cbn [f_fs f_queue f_durable f_usage f_poison f_calls f_maydata] in H.
      destruct ok_c; cbn [negb] in H; [|exact (Fail _ _ (fun x Hx => Hx) H)].
      (* success: the records are published *)
      inversion H; subst st' r. cbn [f_queue f_durable f_poison].
      destruct (publish_exts batch Resb) as [Pe Pi].
      destruct (I1 false c5 _ (fun x Hx => Hx)) as [C3 M3 _]. cbn [f_fs f_queue f_durable f_usage f_maydata] in C3, M3.
      split; [split; cbn [f_fs f_queue f_durable f_usage f_maydata]|].
      * apply (Core_perm _ _ batch (map snd (f_durable st) ++ X)); [|intros e []|exact C3].
        cbn [exts_of app]. rewrite map_app, Pe, app_assoc. reflexivity.
      * intros x Hx. apply in_remove_exts in Hx. destruct Hx as [Hx Hg]. apply M3 in Hx.
        destruct (ow_ext (co_own C3) x (in_or_app _ _ _ (or_introl Hx))) as (_ & Px & _).
        rewrite (in_group_start x _ Hx Px) in Hg. discriminate.
      * intros e [].
      * split; [discriminate|]. left. split; [reflexivity|]. split; [reflexivity|].
        exists (publish batch). split; [reflexivity|]. rewrite Pi. exact Idb.
Qed.

(* the metadata block after a pass that succeeded *)
Definition finish (p : fstate * fres) : fstate * fres :=
  let (st1, r) := p in
  match r with
  | ROk => if f_poison st1 then (st1, RIndet)
           else let (ok, st2) := write_and_sync fault st1 in (st2, if ok then ROk else RIo)
  | _ => (st1, r)
  end.

Lemma finish_spec st1 r1 st' r : finish (st1, r1) = (st', r) ->
  (exists c, st' = upd_calls st1 c) /\ (r = ROk -> r1 = ROk /\ f_poison st1 = false) /\ (r1 <> ROk -> r = r1).
Proof.
  unfold finish. destruct r1; [destruct (f_poison st1) eqn:Po|..].
  2:{ destruct (write_and_sync_only st1) as (ok & c & ->). intros H. inversion H; subst.
      split; [exists c; reflexivity|]. split; [auto | congruence]. }
  all: intros H; inversion H; subst; split; [exists (f_calls st'); apply upd_calls_self|]; split; [discriminate | congruence].
Qed.

(* FeoxStore::flush from any state that satisfies the invariant; what follows FInv st' is the
   honesty of flush that C09 states at the reachable states *)
Lemma flush_spec st st' r : FInv st -> flush fault st = (st', r) ->
  FInv st' /\
  (r = ROk -> f_poison st' = false /\ f_queue st' = []) /\
  ((f_queue st' = [] /\ exists pub, f_durable st' = pub ++ f_durable st /\ map fst pub = map pe_id (f_queue st)) \/
   (r <> ROk /\ f_durable st' = f_durable st /\ map pe_id (f_queue st') = map pe_id (f_queue st))) /\
  (f_poison st = true -> f_poison st' = true /\ r <> ROk) /\
  (forall e, In e (f_queue st) -> pe_quar e = true -> f_queue st' <> [] -> In e (f_queue st')).
Proof.
  intros I H. change (flush fault st) with (finish (attempt fault st)) in H.
  destruct (attempt fault st) as [st1 r1] eqn:EA.
  destruct (attempt_spec st st1 r1 I EA) as (I1 & P1 & Out). destruct (finish_spec _ _ _ _ H) as ([c ->] & Ok & No).
  cbn [upd_calls f_fs f_queue f_durable f_usage f_poison f_calls f_maydata].
  split; [exact (FInv_calls _ c I1)|].
  destruct Out as [(-> & Qe & Pub)|(N1 & Dn & Idn & Qk)].
  - split; [intuition|]. split; [left; auto|]. split; [|congruence].
    (* finish answers ROk only for a store that is not poisoned *)
    intros Hp. split; [exact (P1 Hp)|]. intros Hr. destruct (Ok Hr) as [_ Po]. rewrite (P1 Hp) in Po. discriminate.
  - rewrite (No N1). intuition.
Qed.

End WithOracle.

Lemma FInv_partition X st : FInv X st ->
  let owned := exts_of (f_queue st) ++ map snd (f_durable st) ++ X in
  Inv (f_fs st) /\ (forall b, (cnt b owned <= 1)%nat) /\
  (forall b, DS <= b < dev_sectors (f_fs st) -> (free (f_fs st) b <-> cnt b owned = O)) /\
  f_usage st = sum_blocks owned.
Proof. intros I. destruct (co_own (fv_core _ _ I)) as [A B C _ D]. auto. Qed.

Lemma FInv_unscrubbed X st x b : FInv X st -> In x (f_maydata st) -> blk_in b x -> ~ free (f_fs st) b.
Proof.
  intros I Hx Hb. apply (Owned_not_free _ _ _ _ (co_own (fv_core _ _ I))), cnt_pos. exists x. split; [|exact Hb].
  apply in_or_app. left. exact (fv_may _ _ I x Hx).
Qed.

Lemma enqueue_inv X st id blocks : FInv X st -> FInv X (enqueue st id blocks).
Proof.
  intros [C M Dt]. unfold enqueue.
  assert (E : exts_of (f_queue st ++ [mkpe id blocks None false false]) = exts_of (f_queue st))
    by (rewrite exts_of_app; apply app_nil_r).
  split; cbn [f_fs f_queue f_durable f_usage f_maydata].
  - apply (Core_perm _ _ (f_queue st) (map snd (f_durable st) ++ X)); [rewrite E; reflexivity | | exact C].
    intros e He. apply in_app_or in He. destruct He as [He|[<-|[]]]; [exact (co_flags C e He) | discriminate].
  - rewrite E. exact M.
  - intros e He Hr. apply in_app_or in He. destruct He as [He|[<-|[]]]; [exact (Dt e He Hr) | contradiction].
Qed.

Lemma finit_inv d f : d < U64 -> initialize d = FOk f -> FInv [] (finit f).
Proof.
  intros Hd Hi. destruct (initialize_Inv d f Hi Hd) as (I & Dv & F).
  split; cbn [finit f_fs f_queue f_durable f_usage f_maydata]; [|intros x []|intros e []].
  split; [|intros e []]. cbn [exts_of map app].
  split; [exact I | intros b; apply Nat.le_0_l | | intros x [] | reflexivity].
  intros b Hb. rewrite F. unfold dev_sectors in Hb. rewrite Dv in Hb. split; [reflexivity | intros _; exact Hb].
Qed.

Inductive fcall := CInsert (id blocks : N) | CFlush.

Definition fcall_step (fault : N -> bool) (st : fstate) (c : fcall) : fstate :=
  match c with
  | CInsert id blocks => if 0 <? blocks then enqueue st id blocks else st
  | CFlush => fst (flush fault st)
  end.

Definition fcalls (fault : N -> bool) (st : fstate) (cs : list fcall) : fstate := fold_left (fcall_step fault) cs st.

Lemma fcalls_reach fault d f cs : d < U64 -> initialize d = FOk f -> FInv [] (fcalls fault (finit f) cs).
Proof.
  intros Hd Hi. unfold fcalls. apply (fold_left_inv _ (FInv [])); [|exact (finit_inv d f Hd Hi)]. intros s [id blocks|] I; cbn [fcall_step].
  - destruct (0 <? blocks); [apply enqueue_inv|]; exact I.
  - destruct (flush fault s) as [s' r] eqn:EF. exact (proj1 (flush_spec fault [] s s' r I EF)).
Qed.

(* C05 through failures: on a fresh device, after any sequence of inserts and flushes and
   whatever device calls fail, every block of the data area is free exactly when no queued entry's
   reservation and no published record covers it, no block is covered twice, and the usage counter
   is the number of covered blocks *)
Theorem ownership_partition_through_failures fault d f cs :
  d < U64 -> initialize d = FOk f ->
  let st := fcalls fault (finit f) cs in
  let owned := exts_of (f_queue st) ++ map snd (f_durable st) in
  Inv (f_fs st) /\
  (forall b, (cnt b owned <= 1)%nat) /\
  (forall b, DS <= b < dev_sectors (f_fs st) -> (free (f_fs st) b <-> cnt b owned = O)) /\
  f_usage st = sum_blocks owned.
Proof.
  intros Hd Hi. pose proof (FInv_partition _ _ (fcalls_reach fault d f cs Hd Hi)) as P. rewrite app_nil_r in P. exact P.
Qed.

(* C09: extents that may hold bytes of a failed batch and have not been scrubbed are never free
   (hence never handed to another record): a reservation is given back only clean or scrubbed *)
Theorem unscrubbed_extents_are_never_free fault d f cs x b :
  d < U64 -> initialize d = FOk f ->
  let st := fcalls fault (finit f) cs in
  In x (f_maydata st) -> blk_in b x -> ~ free (f_fs st) b.
Proof. intros Hd Hi. exact (FInv_unscrubbed _ _ x b (fcalls_reach fault d f cs Hd Hi)). Qed.

Lemma take_durable_perm id : forall l x l', take_durable id l = (Some x, l') -> Permutation (map snd l) (x :: map snd l').
Proof.
  induction l as [|[i y] t IH]; intros x l' H; cbn [take_durable] in H; [discriminate|].
  destruct (i =? id).
  - inversion H; subst. reflexivity.
  - destruct (take_durable id t) as [r t']. inversion H; subst r l'. cbn [map snd].
    exact (perm_trans (perm_skip y (IH x t' eq_refl)) (perm_swap x y _)).
Qed.

(* FInv with the extents waiting for their retirement as the ones owned elsewhere *)
Definition RInv (rs : rstate) : Prop := FInv (map snd (r_pending rs)) (r_core rs).

Lemma rdelete_inv rs id : RInv rs -> RInv (rdelete rs id).
Proof.
  unfold RInv, rdelete. intros I. destruct (take_durable id (f_durable (r_core rs))) as [[x|] d'] eqn:E; [|exact I].
  destruct I as [C M Dt]. cbn [r_core r_pending]. split; cbn [set_durable f_fs f_queue f_durable f_usage f_maydata]; [|exact M|exact Dt].
  refine (Core_perm _ _ _ _ _ _ (Permutation_app_head _ _) (co_flags C) C).
  rewrite map_app, app_assoc. apply (perm_trans (Permutation_app_tail _ (take_durable_perm id _ x d' E))).
  apply Permutation_cons_append.
Qed.

Section RetProofs.
Variable fault : N -> bool.

(* the retirements: everything pending is given back, or nothing is *)
Lemma retire_pending_spec rs rs' r : RInv rs -> retire_pending fault rs = (rs', r) ->
  RInv rs' /\ f_queue (r_core rs') = f_queue (r_core rs) /\ f_durable (r_core rs') = f_durable (r_core rs) /\
  (f_poison (r_core rs) = true -> f_poison (r_core rs') = true) /\
  (r = ROk /\ r_pending rs' = [] /\ f_poison (r_core rs') = f_poison (r_core rs) \/
   r <> ROk /\ r_pending rs' = r_pending rs).
Proof.
  unfold RInv. intros I H. unfold retire_pending in H. destruct (r_pending rs) as [|p0 pt] eqn:P.
  - inversion H; subst rs' r. rewrite P. auto 10.
  - set (p := p0 :: pt) in *. destruct (f_poison (r_core rs)) eqn:Po.
    { inversion H; subst rs' r. rewrite P. split; [exact I|]. repeat split; auto. now right. }
    destruct I as [C M Dt]. pose proof (co_own C) as W.
    apply (Owned_perm _ _ _ (map snd p ++ exts_of (f_queue (r_core rs)) ++ map snd (f_durable (r_core rs)))) in W;
      [|rewrite app_assoc; apply Permutation_app_comm].
    destruct (release_coalesced _ _ _ _ W) as (g & f' & Eg & Er & W' & _). rewrite Eg in H.
    destruct (scrub_calls_only fault g (r_core rs)) as (ok & c & Ec). rewrite Ec in H.
    unfold upd_calls, set_poison in H. cbn [f_fs f_queue f_durable f_usage f_poison f_calls f_maydata] in H.
    destruct ok; cbn [negb] in H.
    + rewrite Er in H. inversion H; subst rs' r. cbn [r_core r_pending f_queue f_durable f_poison map].
      split; [|rewrite Po; auto 10]. split; cbn [f_fs f_queue f_durable f_usage f_maydata]; [|exact M|exact Dt].
      split; [rewrite app_nil_r; exact W' | exact (co_flags C)].
    + inversion H; subst rs' r. cbn [r_core r_pending f_queue f_durable f_poison].
      split; [split; assumption|]. repeat split; auto. now right.
Qed.

Lemma rfinish_finish st1 pending : rfinish fault st1 pending =
  let (rs2, r2) := retire_pending fault (mkrs st1 pending) in
  let (st3, r) := finish fault (r_core rs2, r2) in (mkrs st3 (r_pending rs2), r).
Proof.
  unfold rfinish, finish. destruct (retire_pending fault (mkrs st1 pending)) as [[c p] []]; cbn [r_core r_pending]; try reflexivity.
  destruct (f_poison c); [reflexivity|]. destruct (write_and_sync fault c). reflexivity.
Qed.

Lemma rfinish_spec st1 pending rs' r : RInv (mkrs st1 pending) -> rfinish fault st1 pending = (rs', r) ->
  RInv rs' /\ f_queue (r_core rs') = f_queue st1 /\ f_durable (r_core rs') = f_durable st1 /\
  (r = ROk -> r_pending rs' = [] /\ f_poison (r_core rs') = false) /\
  (r_pending rs' = pending \/ r_pending rs' = []) /\
  (f_poison st1 = true -> f_poison (r_core rs') = true /\ r <> ROk).
Proof.
  intros I H. rewrite rfinish_finish in H. destruct (retire_pending fault (mkrs st1 pending)) as [rs2 r2] eqn:ER.
  destruct (finish fault (r_core rs2, r2)) as [st3 r3] eqn:EF. inversion H; subst rs' r.
  destruct (retire_pending_spec _ _ _ I ER) as (I2 & Q2 & D2 & Pm & Out).
  destruct (finish_spec _ _ _ _ _ EF) as ([c ->] & Ok & No).
  cbn [r_core r_pending upd_calls f_fs f_queue f_durable f_usage f_poison f_calls f_maydata] in *.
  split; [exact (FInv_calls _ _ c I2)|]. split; [exact Q2|]. split; [exact D2|].
  destruct Out as [(-> & Pe & Pk)|(N2 & Pn)].
  - split; [intuition|]. split; [right; exact Pe|].
    (* the retirement kept the poison flag, and finish answers ROk only when it is clear *)
    intros Hp. split; [exact (Pm Hp)|]. intros Hr. destruct (Ok Hr) as [_ Po]. rewrite Pk, Hp in Po. discriminate.
  - rewrite (No N2). intuition.
Qed.

(* the worker's pass and, when it succeeded, the tail of the flush *)
Definition retry (st : fstate) (pending : list (N * (N * N))) : rstate * fres :=
  let (st1, r) := attempt fault st in
  match r with ROk => rfinish fault st1 pending | _ => (mkrs st1 pending, r) end.

Lemma retry_spec st pending rs' r : RInv (mkrs st pending) -> retry st pending = (rs', r) ->
  RInv rs' /\
  (r = ROk -> f_queue (r_core rs') = [] /\ r_pending rs' = [] /\ f_poison (r_core rs') = false) /\
  ((f_queue (r_core rs') = [] /\ exists pub, f_durable (r_core rs') = pub ++ f_durable st /\ map fst pub = map pe_id (f_queue st)) \/
   (f_durable (r_core rs') = f_durable st /\ map pe_id (f_queue (r_core rs')) = map pe_id (f_queue st))) /\
  (r_pending rs' = pending \/ r_pending rs' = []) /\
  (f_poison st = true -> f_poison (r_core rs') = true /\ r <> ROk).
Proof.
  intros I H. unfold RInv in I. cbn [r_core r_pending] in I. unfold retry in H. destruct (attempt fault st) as [st1 r1] eqn:EA.
  destruct (attempt_spec fault _ _ _ _ I EA) as (I1 & P1 & [(-> & Qe & pub & Dp & Ip)|(N1 & Dn & Idn & _)]).
  - destruct (rfinish_spec st1 pending _ _ I1 H) as (I2 & Q2 & D2 & Ok2 & Pe2 & Po2).
    rewrite <- Q2 in Qe. rewrite <- D2 in Dp. split; [exact I2|]. split; [intros Hr; destruct (Ok2 Hr); auto|].
    split; [left; split; [exact Qe | exists pub; auto]|]. split; [exact Pe2|].
    intros Hp. exact (Po2 (P1 Hp)).
  - assert (H' : (mkrs st1 pending, r1) = (rs', r)) by (destruct r1; congruence). inversion H'; subst rs' r.
    cbn [r_core r_pending]. split; [exact I1 | tauto].
Qed.

(* FeoxStore::flush is that, possibly after the retirements that follow a refusal of the allocator *)
Lemma rflush_cases rs :
  rflush fault rs = retry (r_core rs) (r_pending rs) \/
  exists st1 rs2 r2, attempt fault (r_core rs) = (st1, RSpace) /\
    retire_pending fault (mkrs st1 (r_pending rs)) = (rs2, r2) /\
    rflush fault rs = match r2 with ROk => retry (r_core rs2) (r_pending rs2) | _ => (rs2, r2) end.
Proof.
  unfold rflush, retry. destruct (attempt fault (r_core rs)) as [st1 []]; try (left; reflexivity).
  destruct (r_pending rs) as [|p0 pt]; [left; reflexivity|]. right.
  destruct (retire_pending fault (mkrs st1 (p0 :: pt))) as [rs2 r2] eqn:ER. exists st1, rs2, r2. auto.
Qed.

Lemma rflush_spec rs rs' r : RInv rs -> rflush fault rs = (rs', r) ->
  RInv rs' /\
  (r = ROk -> f_queue (r_core rs') = [] /\ r_pending rs' = [] /\ f_poison (r_core rs') = false) /\
  ((f_queue (r_core rs') = [] /\ exists pub, f_durable (r_core rs') = pub ++ f_durable (r_core rs) /\ map fst pub = map pe_id (f_queue (r_core rs))) \/
   (f_durable (r_core rs') = f_durable (r_core rs) /\ map pe_id (f_queue (r_core rs')) = map pe_id (f_queue (r_core rs)))) /\
  (r_pending rs' = r_pending rs \/ r_pending rs' = []) /\
  (f_poison (r_core rs) = true -> f_poison (r_core rs') = true /\ r <> ROk).
Proof.
  intros I H. destruct (rflush_cases rs) as [E|(st1 & rs2 & r2 & EA & ER & E)]; rewrite E in H.
  - exact (retry_spec _ _ _ _ I H).
  - destruct (attempt_spec fault _ _ _ _ I EA) as (I1 & P1 & [(Z & _)|(_ & D1 & Id1 & _)]); [discriminate|].
    destruct (retire_pending_spec (mkrs st1 (r_pending rs)) _ _ I1 ER) as (I2 & Q2 & D2 & Pm2 & Out2).
    cbn [r_core r_pending] in *. destruct Out2 as [(-> & Pe & _)|(N2 & Pn)].
    + destruct (retry_spec _ _ _ _ I2 H) as (I3 & Ok3 & Pub3 & Pe3 & Po3). rewrite Q2, D2, D1, Id1 in Pub3.
      split; [exact I3|]. split; [exact Ok3|]. split; [exact Pub3|].
      split; [right; destruct Pe3; congruence | auto].
    + assert (H' : (rs2, r2) = (rs', r)) by (destruct r2; congruence). inversion H'; subst rs' r.
      split; [exact I2|]. split; [contradiction|]. split; [right; split; congruence|]. split; [left; exact Pn | auto].
Qed.

End RetProofs.

Inductive rcall := RCInsert (id blocks : N) | RCDelete (id : N) | RCFlush.

Definition rcall_step (fault : N -> bool) (rs : rstate) (c : rcall) : rstate :=
  match c with
  | RCInsert id blocks => if 0 <? blocks then renqueue rs id blocks else rs
  | RCDelete id => rdelete rs id
  | RCFlush => fst (rflush fault rs)
  end.

Definition rcalls (fault : N -> bool) (rs : rstate) (cs : list rcall) : rstate := fold_left (rcall_step fault) cs rs.

Lemma rcalls_reach fault d f cs : d < U64 -> initialize d = FOk f -> RInv (rcalls fault (rinit f) cs).
Proof.
  intros Hd Hi. unfold rcalls. apply (fold_left_inv _ RInv); [|exact (finit_inv d f Hd Hi)]. intros rs [id blocks|id|] I; cbn [rcall_step].
  - destruct (0 <? blocks); [apply enqueue_inv|]; exact I.
  - apply rdelete_inv, I.
  - destruct (rflush fault rs) as [rs' r] eqn:EF. exact (proj1 (rflush_spec fault rs rs' r I EF)).
Qed.

(* C05 with deletes: after any sequence of inserts, deletes of published records and
   flushes, whatever device calls fail, every block of the data area is free exactly when no
   reservation, no published record and no extent waiting for its retirement covers it; no block is
   covered twice; the usage counter counts the covered blocks *)
Theorem ownership_partition_with_deletes fault d f cs :
  d < U64 -> initialize d = FOk f ->
  let rs := rcalls fault (rinit f) cs in
  let st := r_core rs in
  let owned := exts_of (f_queue st) ++ map snd (f_durable st) ++ map snd (r_pending rs) in
  Inv (f_fs st) /\
  (forall b, (cnt b owned <= 1)%nat) /\
  (forall b, DS <= b < dev_sectors (f_fs st) -> (free (f_fs st) b <-> cnt b owned = O)) /\
  f_usage st = sum_blocks owned.
Proof. intros Hd Hi. exact (FInv_partition _ _ (rcalls_reach fault d f cs Hd Hi)). Qed.

(* C09 with deletes: the honesty of flush: Ok only when the device is not poisoned, the queue
   empty and every pending retirement done; entries are published all or none; the extents
   waiting for retirement are given back all at once or not at all; poison is sticky *)
Theorem flush_with_deletes_is_honest fault d f cs :
  d < U64 -> initialize d = FOk f ->
  let rs := rcalls fault (rinit f) cs in
  forall rs' r, rflush fault rs = (rs', r) ->
  (r = ROk -> f_queue (r_core rs') = [] /\ r_pending rs' = [] /\ f_poison (r_core rs') = false) /\
  ((f_queue (r_core rs') = [] /\ exists pub, f_durable (r_core rs') = pub ++ f_durable (r_core rs) /\ map fst pub = map pe_id (f_queue (r_core rs))) \/
   (f_durable (r_core rs') = f_durable (r_core rs) /\ map pe_id (f_queue (r_core rs')) = map pe_id (f_queue (r_core rs)))) /\
  (r_pending rs' = r_pending rs \/ r_pending rs' = []) /\
  (f_poison (r_core rs) = true -> f_poison (r_core rs') = true /\ r <> ROk).
Proof. intros Hd Hi rs rs' r H. exact (proj2 (rflush_spec fault _ rs' r (rcalls_reach fault d f cs Hd Hi) H)). Qed.

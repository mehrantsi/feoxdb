(* C05 / C03 / C04 at the byte level: what a retirement (retire_extents: at run time and inside
   recovery) and a journal replay can change in the file.  Whatever the extents, the journal
   position and the chunking: the length of the file stays, and a block that lies neither in a
   journal slot nor inside one of the named extents keeps every byte -- in particular both metadata
   copies and every record outside the named extents. *)
From Coq Require Import List NArith Bool Lia Arith.
From Feox Require Import Gen.Constants Model.Codec Model.MetaJournal Model.Recovery
                         Proofs.ListFacts Proofs.RecoveryProofs Proofs.JournalLayoutProofs.
Import ListNotations.
Local Open Scope N_scope.

Definition in_exts (l : list (N * N)) (b : N) : Prop := exists s n, In (s, n) l /\ s <= b < s + n.

Lemma in_exts_cons s n l b : in_exts ((s, n) :: l) b <-> s <= b < s + n \/ in_exts l b.
Proof.
  unfold in_exts. cbn [In]. split.
  - intros (s' & n' & [[= <- <-]|Hin] & R); eauto.
  - intros [R|(s' & n' & Hin & R)]; eauto.
Qed.

Lemma in_exts_incl l l' b : incl l l' -> in_exts l b -> in_exts l' b.
Proof. intros H (s & n & Hin & R). exists s, n. auto. Qed.

Lemma write_markers_agree exts : forall img,
  agree_on (fun k => ~ in_exts exts (N.of_nat k)) img (write_markers img exts).
Proof.
  induction exts as [|[s n] t IH]; intros img; cbn [write_markers]; [apply agree_on_refl|].
  apply (agree_on_trans _ _ (set_blocks img s (marker_run s n (N.to_nat n)))).
  - eapply agree_on_weaken; [|apply set_blocks_agree]. intros k Hk. cbv beta. rewrite marker_run_length.
    rewrite in_exts_cons in Hk. lia.
  - eapply agree_on_weaken; [|apply IH]. intros k Hk. rewrite in_exts_cons in Hk. tauto.
Qed.

Lemma insert_by_start_in x : forall l y, In y (insert_by_start x l) <-> y = x \/ In y l.
Proof.
  induction l as [|z t IH]; intros y; cbn [insert_by_start].
  - cbn. intuition.
  - destruct (fst x <? fst z); cbn [In]; [intuition|]. rewrite IH. intuition.
Qed.

Lemma sort_by_start_in l : forall y, In y (sort_by_start l) <-> In y l.
Proof.
  unfold sort_by_start. induction l as [|x t IH]; intros y; cbn [fold_right]; [tauto|].
  rewrite insert_by_start_in, IH. cbn. intuition.
Qed.

Lemma coalesce_sorted_within : forall l acc co, coalesce_sorted l acc = Some co ->
  forall b, in_exts co b -> in_exts l b \/ in_exts acc b.
Proof.
  induction l as [|[s n] t IH]; intros acc co H b Hb; cbn [coalesce_sorted] in H.
  - injection H as <-. right. revert Hb. apply in_exts_incl. intros x. apply in_rev.
  - destruct (n =? 0); [discriminate|]. rewrite in_exts_cons.
    destruct acc as [|[ps pn] acc'].
    + destruct (IH _ _ H b Hb) as [A|A]; [tauto|]. rewrite in_exts_cons in A. tauto.
    + destruct (s <? ps + pn); [discriminate|]. rewrite in_exts_cons.
      (* an extent that starts where the last one ends is merged into it *)
      destruct (N.eqb_spec s (ps + pn)); (destruct (IH _ _ H b Hb) as [A|A]; [tauto|]); rewrite !in_exts_cons in A.
      * destruct A as [A|A]; [|tauto]. destruct (N.lt_ge_cases b (ps + pn)); [right; left; lia|left; left; lia].
      * tauto.
Qed.

Lemma coalesce_within l co : coalesce l = Some co -> forall b, in_exts co b -> in_exts l b.
Proof.
  unfold coalesce. intros H b Hb. destruct (coalesce_sorted_within _ _ _ H b Hb) as [A|(s & n & [] & _)].
  revert A. apply in_exts_incl. intros x. apply sort_by_start_in.
Qed.

Lemma chunks_Forall {A} k : forall fuel (l : list A),
  Forall (fun c => (length c <= k)%nat /\ incl c l) (chunks fuel k l).
Proof.
  induction fuel as [|f IH]; intros l; cbn [chunks]; [constructor|]. destruct l as [|a t]; constructor.
  - split; [apply firstn_le_length|apply firstn_incl].
  - eapply Forall_impl; [|apply IH]. intros c [L H]. split; [exact L|]. exact (incl_tran H (skipn_incl _ _)).
Qed.

Definition outside_journal (k : nat) : Prop :=
  (k <= N.to_nat FEOX_METADATA_BLOCK \/ N.to_nat FEOX_METADATA_BACKUP_BLOCK <= k)%nat.

Lemma jnext_slot p : j_slot (jnext p) < ALLOCATION_JOURNAL_SLOTS.
Proof. cbn [jnext j_slot]. apply N.mod_lt. vm_compute. discriminate. Qed.

Definition same_outside (exts : list (N * N)) (img img' : image) : Prop :=
  length img' = length img /\
  forall k, outside_journal k -> ~ in_exts exts (N.of_nat k) -> nth k img' [] = nth k img [].

(* the blocks a retirement or a replay of [exts] leaves alone *)
Definition spared (exts : list (N * N)) (k : nat) : Prop := outside_journal k /\ ~ in_exts exts (N.of_nat k).

Lemma same_outside_agree exts a b : same_outside exts a b <-> agree_on (spared exts) a b.
Proof. unfold spared. split; intros [L H]; split; auto. intros k []; auto. Qed.

Lemma write_journal_spares exts img slot g st chunk :
  slot < ALLOCATION_JOURNAL_SLOTS -> N.of_nat (length chunk) <= ALLOCATION_JOURNAL_MAX_ENTRIES ->
  agree_on (spared exts) img (write_journal img slot g st chunk).
Proof.
  intros Hs Hc. eapply agree_on_weaken; [|exact (journal_write_agree img slot g st chunk Hc)].
  intros k [O _]. destruct (journal_slots_lie_between_the_metadata_copies slot Hs) as (A & B & _).
  unfold outside_journal in O. cbv zeta in A, B. lia.
Qed.

Lemma write_markers_spares exts img chunk :
  (forall b, in_exts chunk b -> in_exts exts b) -> agree_on (spared exts) img (write_markers img chunk).
Proof. intros W. eapply agree_on_weaken; [|apply write_markers_agree]. intros k [_ N] Hb. auto. Qed.

Theorem retirement_is_contained img p exts : same_outside exts img (fst (fst (retire_extents img p exts))).
Proof.
  apply same_outside_agree. unfold retire_extents. destruct exts as [|e0 et]; [apply agree_on_refl|].
  set (exts := e0 :: et). destruct (coalesce exts) as [co|] eqn:Eco; [|apply agree_on_refl].
  pose proof (coalesce_within _ _ Eco) as W.
  refine (fold_left_inv_Forall _ _ (fun acc => agree_on (spared exts) img (fst (fst acc))) _ _ _
            (chunks_Forall _ _ _) _); [|apply agree_on_refl].
  intros [[im q] ok] chunk [Hlen Hin] Hacc. cbn [fst] in Hacc.
  destruct ok; cbn [negb]; [|exact Hacc]. destruct (jnext_ok q); cbn [negb]; [|exact Hacc]. cbv zeta.
  (* journal ACTIVE, markers, journal CLEAR *)
  assert (S2 : agree_on (spared exts) img
                 (write_markers (write_journal im (j_slot (jnext q)) (j_gen (jnext q)) JOURNAL_ACTIVE chunk) chunk)).
  { apply (agree_on_trans _ _ _ _ Hacc). eapply agree_on_trans.
    2:{ apply write_markers_spares. eauto using in_exts_incl. }
    apply write_journal_spares; [apply jnext_slot|lia]. }
  destruct (jnext_ok (jnext q)); cbn [negb fst]; [|exact S2].
  apply (agree_on_trans _ _ _ _ S2). apply write_journal_spares; [apply jnext_slot|apply N.le_0_l].
Qed.

Theorem replay_is_contained img p exts :
  match replay img p exts with
  | ReplayOk img' _ | ReplayExhausted img' => same_outside exts img img'
  | ReplayCoalesce => True
  end.
Proof.
  unfold replay. destruct exts as [|e0 et]; [apply same_outside_agree, agree_on_refl|].
  set (exts := e0 :: et). destruct (coalesce exts) as [co|] eqn:Eco; [|exact I].
  pose proof (write_markers_spares exts img co (coalesce_within _ _ Eco)) as S1.
  destruct (jnext_ok p); cbn [negb]; apply same_outside_agree; [|exact S1].
  apply (agree_on_trans _ _ _ _ S1). apply write_journal_spares; [apply jnext_slot|apply N.le_0_l].
Qed.

Theorem retirement_keeps_every_other_extent img p exts a n :
  (N.to_nat FEOX_METADATA_BACKUP_BLOCK <= length img)%nat ->
  FEOX_METADATA_BACKUP_BLOCK <= a ->
  (forall b, a <= b < a + n -> ~ in_exts exts b) ->
  let img' := fst (fst (retire_extents img p exts)) in
  length img' = length img /\
  firstn (N.to_nat n) (skipn (N.to_nat a) img') = firstn (N.to_nat n) (skipn (N.to_nat a) img).
Proof.
  intros _ Ha Hout img'. pose proof (proj1 (same_outside_agree _ _ _) (retirement_is_contained img p exts)) as S.
  split; [exact (proj1 S)|]. apply (agree_on_window _ _ _ _ _ S).
  intros k Hk. split; [right; lia|apply Hout; lia].
Qed.

Definition reserved (k : nat) : Prop :=
  (k <= N.to_nat FEOX_METADATA_BLOCK \/ (N.to_nat FEOX_METADATA_BACKUP_BLOCK <= k /\ k < N.to_nat FEOX_DATA_START_BLOCK))%nat.

Definition untouched (img img' : image) : Prop := agree_on reserved img img'.

Lemma same_outside_untouched exts img img' : in_data exts -> same_outside exts img img' -> untouched img img'.
Proof.
  intros D S. apply same_outside_agree in S. revert S. apply agree_on_weaken. intros k R. unfold reserved in R. split.
  - unfold outside_journal. lia.
  - intros (s & n & Hin & Hb). unfold in_data in D. rewrite Forall_forall in D. specialize (D _ Hin). cbn [fst] in D.
    assert (FEOX_METADATA_BLOCK < FEOX_DATA_START_BLOCK) by (vm_compute; reflexivity). lia.
Qed.

(* extents in the data area (what the journal codec and the scan produce): both metadata copies
   keep every byte *)
Theorem retirement_keeps_the_metadata img p exts :
  (N.to_nat FEOX_METADATA_BACKUP_BLOCK <= length img)%nat ->
  Forall (fun e => FEOX_DATA_START_BLOCK <= fst e) exts ->
  let img' := fst (fst (retire_extents img p exts)) in
  nth (N.to_nat FEOX_METADATA_BLOCK) img' [] = nth (N.to_nat FEOX_METADATA_BLOCK) img [] /\
  nth (N.to_nat FEOX_METADATA_BACKUP_BLOCK) img' [] = nth (N.to_nat FEOX_METADATA_BACKUP_BLOCK) img [].
Proof.
  intros _ Hd img'. destruct (same_outside_untouched _ _ _ Hd (retirement_is_contained img p exts)) as [_ U].
  assert (B : FEOX_METADATA_BACKUP_BLOCK < FEOX_DATA_START_BLOCK) by (vm_compute; reflexivity).
  split; apply U; unfold reserved; lia.
Qed.

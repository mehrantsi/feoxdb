(* C13, concurrent clause: reserve_memory as a load and a compare-exchange per thread.  Under any
   interleaving the counter equals the sum of what the threads hold and stays within the limit. *)
From Coq Require Import List NArith Lia.
From Feox Require Import Model.MemLimit Proofs.ListFacts Proofs.SetNthFacts.
Import ListNotations.
Local Open Scope N_scope.

Fixpoint owned_sum (l : list mth) : N := match l with [] => 0 | t :: r => m_owned t + owned_sum r end.

Definition held_ok (t : mth) : Prop := match m_pc t with MHeld a => a <= m_owned t | _ => True end.

Record MInv (s : mst) : Prop := {
  mi_sum : usage s = owned_sum (ths s);
  mi_lim : usage s <= limit s;
  mi_held : Forall held_ok (ths s)
}.

Lemma owned_set_nth l i t t' :
  nth_error l i = Some t -> owned_sum (set_nth i t' l) + m_owned t = owned_sum l + m_owned t'.
Proof.
  revert i. induction l as [|x r IH]; intros [|i] H; cbn in *; try discriminate.
  - injection H as ->. lia.
  - specialize (IH i H). lia.
Qed.

Lemma owned_le l i t : nth_error l i = Some t -> m_owned t <= owned_sum l.
Proof. intros H. pose proof (owned_set_nth l i t (mkmth MIdle 0) H) as E. cbn in E. lia. Qed.

Lemma minit_MInv lim n : MInv (minit lim n).
Proof.
  constructor; cbn.
  - induction n; cbn; [reflexivity | rewrite <- IHn; reflexivity].
  - lia.
  - induction n; cbn; constructor; [exact I | exact IHn].
Qed.

Definition keeps (s s' : mst) : Prop := MInv s' /\ limit s' = limit s.

(* every event that does anything rewrites one thread and moves the counter by what that thread's
   account moves *)
Lemma MInv_set s i t t' u :
  MInv s -> nth_error (ths s) i = Some t -> u + m_owned t = usage s + m_owned t' -> u <= limit s ->
  held_ok t' -> keeps s (mkmst u (limit s) (set_nth i t' (ths s))).
Proof.
  intros [Hs Hl Hh] Hn Hu Hlim Ht. split; [|reflexivity]. constructor; cbn; auto using Forall_set_nth.
  pose proof (owned_set_nth _ _ _ t' Hn). lia.
Qed.

Theorem mstep_ok s e : MInv s -> keeps s (mstep s e).
Proof.
  intros Hinv. pose proof Hinv as [Hs Hl Hh]. assert (Stay : keeps s s) by (split; [exact Hinv | reflexivity]).
  destruct e as [i a|i|i|i|i r]; cbn;
    (destruct (nth_error (ths s) i) as [[[|cur a'|a'] o]|] eqn:Hn; try exact Stay).
  - apply (MInv_set s i _ _ _ Hinv Hn); cbn; trivial.
  - destruct (limit s <? cur + a') eqn:El; [apply (MInv_set s i _ _ _ Hinv Hn); cbn; trivial|].
    apply N.ltb_ge in El.
    destruct (N.eqb_spec (usage s) cur) as [<-|_]; apply (MInv_set s i _ _ _ Hinv Hn); cbn; trivial; lia.
  - apply (MInv_set s i _ _ _ Hinv Hn); cbn; trivial.
  - pose proof (proj1 (Forall_forall _ _) Hh _ (nth_error_In _ _ Hn)) as Hk.
    pose proof (owned_le _ _ _ Hn) as Ho. cbn in Hk, Ho.
    apply (MInv_set s i _ _ _ Hinv Hn); cbn; trivial; lia.
  - destruct (N.leb_spec r o); [|exact Stay]. pose proof (owned_le _ _ _ Hn) as Ho. cbn in Ho.
    apply (MInv_set s i _ _ _ Hinv Hn); cbn; trivial; lia.
Qed.

(* whatever the number of threads and the interleaving of loads, compare-exchanges, commits, drops
   and releases: the counter never exceeds the limit and always equals what the threads account for *)
Theorem usage_never_exceeds_the_limit lim n evs :
  let s := mrun (minit lim n) evs in usage s <= limit s /\ limit s = lim /\ usage s = owned_sum (ths s).
Proof.
  intros s.
  assert (H : MInv s /\ limit s = lim).
  { apply (fold_left_inv mstep (fun s' => MInv s' /\ limit s' = lim)).
    - intros s1 e [I1 L1]. destruct (mstep_ok s1 e I1) as [I2 L2]. split; [exact I2 | congruence].
    - split; [exact (minit_MInv lim n) | reflexivity]. }
  destruct H as [[Hsum Hlim _] L]. auto.
Qed.

(* a refused reservation changes nothing but the thread's own control state *)
Theorem refused_reservation_changes_nothing s i cur a o :
  nth_error (ths s) i = Some (mkmth (MLoaded cur a) o) -> limit s < cur + a ->
  usage (mstep s (MCas i)) = usage s /\ owned_sum (ths (mstep s (MCas i))) = owned_sum (ths s).
Proof.
  intros Hn Hlt. cbn. rewrite Hn. apply N.ltb_lt in Hlt. rewrite Hlt. cbn. split; [reflexivity|].
  pose proof (owned_set_nth _ _ _ (mkmth MIdle o) Hn) as H. cbn in H. lia.
Qed.

(* C15: the read-only recovery used for the migration source never writes. *)
From Coq Require Import List NArith Bool.
From Feox Require Import Model.Recovery Model.Migration Proofs.RecoveryProofs.
Import ListNotations.
Local Open Scope N_scope.

Theorem read_only_open_never_writes c img : c_ro c = true -> snd (open_image c img) = img.
Proof. intros RO. destruct (proj2 (open_image_outcome c img)) as [H|[H _]]; [exact H|congruence]. Qed.

Theorem migration_source_untouched img allow : snd (open_image (ro_cfg allow) img) = img.
Proof. apply read_only_open_never_writes. reflexivity. Qed.

(* a migration that succeeds found no destination and a source below version 3, and reports the
   entries of the read-only recovery in index order with key, timestamp and absolute expiry
   preserved (the values and the failing cases are not part of this statement) *)
Theorem migrate_spec_ok src allow dst_exists r :
  migrate_spec src allow dst_exists = inl r ->
  dst_exists = false /\
  exists o, fst (open_image (ro_cfg allow) src) = Ok o /\ o_version o < 3 /\
    rep_version r = o_version o /\
    map mr_key (rep_records r) = map e_key (o_idx o) /\
    map mr_ts (rep_records r) = map e_ts (o_idx o) /\
    map mr_exp (rep_records r) = map e_exp (o_idx o).
Proof.
  unfold migrate_spec. destruct (fst (open_image (ro_cfg allow) src)) as [o|e|]; [|destruct e; discriminate|discriminate].
  destruct (N.leb_spec 3 (o_version o)); [discriminate|].
  destruct (existsb _ _); [discriminate|]. destruct dst_exists; [discriminate|].
  intros [= <-]. split; auto. exists o. simpl. repeat split; auto; rewrite map_map; reflexivity.
Qed.

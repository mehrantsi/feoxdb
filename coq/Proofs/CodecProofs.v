(* The byte codec (Model/Bytes.v, Crc32c.v, Codec.v): what the parser reads back from what the
   serialiser wrote, field for field; the CRC table against its bitwise definition; the 16-bit
   tokens; and why a record head, a retirement marker and a zero block are never taken for one
   another. *)
From Coq Require Import List NArith Bool Lia Arith.
From Feox Require Import Gen.Constants Model.Bytes Model.Crc32c Model.Codec Proofs.ListFacts Proofs.BytesProofs.
Import ListNotations.
Local Open Scope N_scope.

Lemma le_bytes_length k n : length (le_bytes k n) = k.
Proof. revert n; induction k; intros; simpl; auto. Qed.

Lemma le_bytes_ok k n : Forall (fun b => b < 256) (le_bytes k n).
Proof.
  revert n; induction k as [|k IH]; intros n; simpl; constructor; auto.
  apply N.mod_lt. lia.
Qed.

Lemma le_num_le_bytes k : forall n, n < 256 ^ N.of_nat k -> le_num (le_bytes k n) = n.
Proof.
  induction k as [|k IH]; intros n Hn.
  - simpl in *. change (256 ^ 0) with 1 in Hn. lia.
  - cbn [le_bytes le_num]. rewrite IH.
    + pose proof (N.div_mod n 256). lia.
    + rewrite Nat2N.inj_succ, N.pow_succ_r' in Hn.
      apply N.div_lt_upper_bound; lia.
Qed.

Lemma le_bytes_le_num l : Forall (fun b => b < 256) l -> le_bytes (length l) (le_num l) = l.
Proof.
  induction l as [|b t IH]; intros H; [reflexivity|].
  inversion H as [|? ? Hb Ht]; subst. cbn [length le_bytes le_num].
  rewrite (N.mul_comm 256), N.mod_add, N.div_add, N.mod_small, N.div_small, N.add_0_l, IH
    by (assumption || lia).
  reflexivity.
Qed.

Lemma le_num_bound l : Forall (fun b => b < 256) l -> le_num l < 256 ^ N.of_nat (length l).
Proof.
  induction l as [|b t IH]; intros H; [simpl; change (256 ^ 0) with 1; lia|].
  inversion H as [|? ? Hb Ht]; subst. cbn [length le_num].
  rewrite Nat2N.inj_succ, N.pow_succ_r'. specialize (IH Ht). lia.
Qed.

Lemma sub_app_ge (a b : list N) off len : (length a <= off)%nat ->
  sub (a ++ b) off len = sub b (off - length a) len.
Proof.
  intros H. unfold sub. rewrite skipn_app. rewrite skipn_all2 by lia. reflexivity.
Qed.

Lemma sub_app_r (a b : list N) off k len : off = (length a + k)%nat ->
  sub (a ++ b) off len = sub b k len.
Proof. intros ->. rewrite sub_app_ge by lia. f_equal. lia. Qed.

Lemma sub_0_app (a b : list N) len : len = length a -> sub (a ++ b) 0 len = a.
Proof. intros ->. unfold sub. cbn [skipn]. rewrite firstn_app, Nat.sub_diag, firstn_all. apply app_nil_r. Qed.

Lemma sub_at (pre x post : list N) off len : off = length pre -> len = length x ->
  sub (pre ++ x ++ post) off len = x.
Proof. intros Ho Hl. rewrite (sub_app_r pre _ off 0) by lia. apply sub_0_app. exact Hl. Qed.

Lemma sub_skip' (a b : list N) off len : off = length a -> sub (a ++ b) off len = firstn len b.
Proof. intros H. rewrite (sub_app_r a b off 0) by lia. reflexivity. Qed.

Lemma overwrite_length src : forall l, length (overwrite src l) = length l.
Proof. induction src as [|s t IH]; intros [|x l]; cbn [overwrite length]; try reflexivity. rewrite IH. reflexivity. Qed.

Lemma splice_length l : forall off src, length (splice l off src) = length l.
Proof.
  induction l as [|x t IH]; intros [|off] src; cbn [splice length]; try reflexivity.
  - destruct src; reflexivity.
  - apply overwrite_length.
  - rewrite IH. reflexivity.
Qed.

Lemma sub_opt_ok l off len : (off + len <= length l)%nat -> sub_opt l off len = Some (sub l off len).
Proof. intros H. unfold sub_opt. destruct (Nat.leb_spec (off + len) (length l)); [auto|lia]. Qed.

(* Reading a field: once the slice is known to be the encoding of v, the bound on v is all
   that is left.  Where every segment before the field has a literal length, the slice
   hypothesis holds by conversion. *)
Lemma u16_at_le d off v : sub d off 2 = le_bytes 2 v -> v < 2 ^ 16 -> u16_at d off = v.
Proof. intros E H. unfold u16_at. rewrite E. exact (le_num_le_bytes 2 v H). Qed.

Lemma u32_at_le d off v : sub d off 4 = le_bytes 4 v -> v < 2 ^ 32 -> u32_at d off = v.
Proof. intros E H. unfold u32_at. rewrite E. exact (le_num_le_bytes 4 v H). Qed.

Lemma u64_at_le d off v : sub d off 8 = le_bytes 8 v -> v < 2 ^ 64 -> u64_at d off = v.
Proof. intros E H. unfold u64_at. rewrite E. exact (le_num_le_bytes 8 v H). Qed.

Lemma lxor_lt a b n : a < 2 ^ n -> b < 2 ^ n -> N.lxor a b < 2 ^ n.
Proof.
  intros Ha Hb.
  destruct (N.eq_dec a 0) as [->|Na]; [rewrite N.lxor_0_l; exact Hb|].
  destruct (N.eq_dec b 0) as [->|Nb]; [rewrite N.lxor_0_r; exact Ha|].
  destruct (N.eq_dec (N.lxor a b) 0) as [->|Nx]; [lia|].
  apply N.log2_lt_pow2; [lia|]. eapply N.le_lt_trans; [apply N.log2_lxor|].
  apply N.max_lub_lt; apply N.log2_lt_pow2; lia.
Qed.

Lemma shiftr_lt c k n : c < 2 ^ (k + n) -> N.shiftr c k < 2 ^ n.
Proof.
  intros H. rewrite N.shiftr_div_pow2. apply N.div_lt_upper_bound; [apply N.pow_nonzero; lia|].
  rewrite <- N.pow_add_r. exact H.
Qed.

Lemma land_ones_lt a n : N.land a (N.ones n) < 2 ^ n.
Proof. rewrite N.land_ones. apply N.mod_lt. apply N.pow_nonzero. lia. Qed.

Lemma crc32c_chain seed a b : crc32c (crc32c seed a) b = crc32c seed (a ++ b).
Proof.
  unfold crc32c, crc_raw. rewrite fold_left_app.
  rewrite N.lxor_assoc, N.lxor_nilpotent, N.lxor_0_r. reflexivity.
Qed.

(* the table is a trie over the 8 index bits, least significant first, built with the index
   accumulated in prefix: its leaf at i holds the 8-fold bit step of i *)
Lemma lookup_build d : forall p b i, i < 2 ^ N.of_nat d -> lookup (build d p b) i = crc_8bits (p + b * i).
Proof.
  induction d as [|d IH]; intros p b i Hi.
  - change (2 ^ N.of_nat 0) with 1 in Hi. cbn [build lookup]. f_equal. nia.
  - rewrite Nat2N.inj_succ, N.pow_succ_r' in Hi. cbn [build lookup].
    rewrite N.bit0_odd, <- N.div2_spec. pose proof (N.div2_odd i) as E.
    destruct (N.odd i); cbn [N.b2n] in E; rewrite IH by lia; f_equal; rewrite E at 2; lia.
Qed.

Lemma table_correct i : i < 256 -> lookup TABLE i = crc_8bits i.
Proof. intros H. unfold TABLE. rewrite (lookup_build 8 0 1 i H). f_equal. lia. Qed.

Lemma crc_byte_table c b : crc_byte TABLE c b = crc_byte_bitwise c b.
Proof. unfold crc_byte, crc_byte_bitwise. rewrite table_correct; [reflexivity|]. exact (land_ones_lt _ 8). Qed.

(* one bit step keeps 32 bits, and a table entry is eight of them *)
Lemma crc_bit_lt c : c < 2 ^ 32 -> crc_bit c < 2 ^ 32.
Proof.
  intros H. assert (S : N.shiftr c 1 < 2 ^ 32).
  { apply (shiftr_lt c 1 32). lia. }
  unfold crc_bit. destruct (N.testbit c 0); [apply lxor_lt; [exact S|reflexivity]|exact S].
Qed.

Lemma table_entry_lt i : i < 256 -> lookup TABLE i < 2 ^ 32.
Proof.
  intros H. rewrite table_correct by exact H. unfold crc_8bits. do 8 apply crc_bit_lt. lia.
Qed.

Lemma crc_byte_lt c b : c < 2 ^ 32 -> crc_byte TABLE c b < 2 ^ 32.
Proof.
  intros Hc. unfold crc_byte. apply lxor_lt.
  - apply table_entry_lt. exact (land_ones_lt _ 8).
  - apply (shiftr_lt c 8 32). lia.
Qed.

Lemma crc_raw_lt data c : c < 2 ^ 32 -> crc_raw c data < 2 ^ 32.
Proof. intros Hc. unfold crc_raw. apply fold_left_inv; [intros s b; apply crc_byte_lt|exact Hc]. Qed.

Lemma crc32c_lt seed data : seed < 2 ^ 32 -> crc32c seed data < 2 ^ 32.
Proof.
  intros Hs. unfold crc32c. apply lxor_lt; [|reflexivity]. apply crc_raw_lt. apply lxor_lt; [exact Hs|reflexivity].
Qed.

Lemma fold16_nonzero c : fold16 c <> 0.
Proof. unfold fold16. destruct (N.eqb_spec (N.lxor (N.shiftr c 16) (N.land c 65535)) 0); lia. Qed.

Lemma fold16_lt c : c < 2 ^ 32 -> fold16 c < 65536.
Proof.
  intros Hc. unfold fold16.
  assert (N.lxor (N.shiftr c 16) (N.land c 65535) < 2 ^ 16)
    by (apply lxor_lt; [exact (shiftr_lt c 16 16 Hc)|exact (land_ones_lt c 16)]).
  destruct (_ =? 0); [reflexivity|assumption].
Qed.

Lemma seq_token_lt c : fold16 c < 65536 \/ True. Proof. auto. Qed.

Lemma seq_token_lt' sector header : seq_token sector header < 65536.
Proof. unfold seq_token. apply fold16_lt. apply crc32c_lt. apply crc32c_lt. reflexivity. Qed.

Lemma record_token_lt sector data : record_token sector data < 65536.
Proof.
  unfold record_token. destruct (Nat.leb 4 (length data)); apply fold16_lt; repeat apply crc32c_lt; reflexivity.
Qed.

Lemma record_token_nonzero sector data : record_token sector data <> 0.
Proof. unfold record_token. destruct (Nat.leb 4 (length data)); apply fold16_nonzero. Qed.

Definition header_bytes (version : N) (tok : list N) (key : list N) (vlen ts exp : N) : list N :=
  le_bytes 2 SECTOR_MARKER ++ tok ++ le_bytes 2 (N.of_nat (length key)) ++ key ++
  le_bytes 8 vlen ++ le_bytes 8 ts ++ (if has_expiry version then le_bytes 8 exp else []).

Lemma header_bytes_length version tok key vlen ts exp : length tok = 2%nat ->
  length (header_bytes version tok key vlen ts exp) =
  (6 + length key + 16 + (if has_expiry version then 8 else 0))%nat.
Proof.
  intros Ht. unfold header_bytes. rewrite !app_length, !le_bytes_length, Ht.
  destruct (has_expiry version); simpl; rewrite ?le_bytes_length; lia.
Qed.

(* The six bytes before the key have literal lengths, as have the fields after it: reads inside
   either group are by conversion, and the key between them is stepped over with sub_app_r.
   e is the expiry field, empty in the layout that has none. *)
Lemma parse_head_of_layout version t0 t1 key vlen ts e rest :
  N.of_nat (length key) < 65536 -> vlen < 2 ^ 64 -> ts < 2 ^ 64 ->
  length e = (if has_expiry version then 8 else 0)%nat ->
  parse_head version
    ((le_bytes 2 SECTOR_MARKER ++ [t0; t1] ++ le_bytes 2 (N.of_nat (length key)) ++ key ++
      le_bytes 8 vlen ++ le_bytes 8 ts ++ e) ++ rest) = Some (Some (key, vlen, ts, le_num e)).
Proof.
  intros Hk Hv Hts He.
  set (h6 := le_bytes 2 SECTOR_MARKER ++ [t0; t1] ++ le_bytes 2 (N.of_nat (length key))).
  set (fields := le_bytes 8 vlen ++ le_bytes 8 ts ++ e ++ rest).
  replace (_ ++ rest) with ((h6 ++ key) ++ fields) by (unfold h6, fields; rewrite <- !app_assoc; reflexivity).
  set (data := (h6 ++ key) ++ fields).
  assert (F : forall off k, off = (6 + length key + k)%nat -> sub data off 8 = sub fields k 8)
    by (intros off k ->; apply sub_app_r; rewrite app_length; reflexivity).
  assert (L : (length data = 6 + length key + (16 + length e + length rest))%nat)
    by (unfold data, fields; rewrite !app_length; reflexivity).
  unfold parse_head.
  rewrite (u16_at_le data 4 (N.of_nat (length key))), Nat2N.id by (reflexivity || exact Hk).
  destruct (Nat.ltb_spec (length data) 6); [lia|].
  destruct (Nat.ltb_spec (length data) (6 + length key + (if has_expiry version then 24 else 16)));
    [destruct (has_expiry version) in *; lia|].
  destruct (has_expiry version) in *.
  all: rewrite !sub_opt_ok by lia.
  all: replace (sub data 6 (length key)) with key
         by (symmetry; unfold data; rewrite <- app_assoc; apply sub_at; reflexivity).
  all: rewrite (F _ 0%nat), (F _ 8%nat), ?(F _ 16%nat) by lia.
  all: change (sub fields 0 8) with (le_bytes 8 vlen); change (sub fields 8 8) with (le_bytes 8 ts).
  all: rewrite !(le_num_le_bytes 8) by assumption.
  - change (sub fields 16 8) with (sub (e ++ rest) 0 8). rewrite sub_0_app by (symmetry; exact He). reflexivity.
  - destruct e; [reflexivity|discriminate He].
Qed.

Lemma parse_header_bytes version tok key vlen ts exp rest :
  length tok = 2%nat -> N.of_nat (length key) < 65536 -> vlen < 2 ^ 64 -> ts < 2 ^ 64 -> exp < 2 ^ 64 ->
  parse_head version (header_bytes version tok key vlen ts exp ++ rest) =
  Some (Some (key, vlen, ts, if has_expiry version then exp else 0)).
Proof.
  intros Ht Hk Hv Hts Hexp. destruct tok as [|t0 [|t1 [|]]]; try discriminate Ht.
  unfold header_bytes. rewrite parse_head_of_layout by (assumption || destruct (has_expiry version); reflexivity).
  destruct (has_expiry version); [rewrite (le_num_le_bytes 8) by assumption|]; reflexivity.
Qed.

Lemma serialize_shape version r :
  exists pad, serialize version r =
    header_bytes version [0; 0] (r_key r) (N.of_nat (length (r_value r))) (r_ts r) (r_exp r) ++ (r_value r ++ pad).
Proof.
  destruct (has_expiry version) eqn:E; eexists; unfold serialize, header_bytes; rewrite E;
    rewrite <- !app_assoc; cbn [app]; reflexivity.
Qed.

Theorem parse_serialize version r :
  N.of_nat (length (r_key r)) < 65536 -> N.of_nat (length (r_value r)) < 2 ^ 64 ->
  r_ts r < 2 ^ 64 -> r_exp r < 2 ^ 64 ->
  parse_head version (serialize version r) =
  Some (Some (r_key r, N.of_nat (length (r_value r)), r_ts r, if has_expiry version then r_exp r else 0)).
Proof.
  intros Hk Hv Ht He. destruct (serialize_shape version r) as (pad & ->).
  apply parse_header_bytes; auto.
Qed.

(* the head block alone (what the scan looks at) parses to the same fields when the header fits *)
Theorem parse_head_block version r :
  N.of_nat (length (r_key r)) < 65536 -> N.of_nat (length (r_value r)) < 2 ^ 64 ->
  r_ts r < 2 ^ 64 -> r_exp r < 2 ^ 64 ->
  (6 + length (r_key r) + 16 + (if has_expiry version then 8 else 0) <= BLOCK)%nat ->
  parse_head version (firstn BLOCK (serialize version r)) =
  Some (Some (r_key r, N.of_nat (length (r_value r)), r_ts r, if has_expiry version then r_exp r else 0)).
Proof.
  intros Hk Hv Ht He Hfit. destruct (serialize_shape version r) as (pad & ->).
  rewrite firstn_app, firstn_all2 by (rewrite header_bytes_length by reflexivity; exact Hfit).
  apply parse_header_bytes; auto.
Qed.

(* the value sits at value_offset = header_size *)
Theorem value_at_offset version r :
  let hdr := (6 + length (r_key r) + 16 + (if has_expiry version then 8 else 0))%nat in
  sub (serialize version r) hdr (length (r_value r)) = r_value r.
Proof.
  intros hdr. destruct (serialize_shape version r) as (pad & ->).
  apply sub_at; [|reflexivity]. symmetry. apply header_bytes_length. reflexivity.
Qed.

Lemma marker_bytes_length s r st : length (marker_bytes s r st) = 19%nat.
Proof. unfold marker_bytes. rewrite !app_length, !le_bytes_length. reflexivity. Qed.

Lemma marker_block_length s r st : length (marker_block s r st) = BLOCK.
Proof. unfold marker_block, zeros. rewrite app_length, marker_bytes_length, repeat_length. reflexivity. Qed.

(* the documented marker layout, read off the block at its literal offsets.  The token covers
   bytes 0..16 and byte 18; these are reduced first, because unification left to compare the two
   token expressions as they stand does not return. *)
Lemma marker_block_fields s r st :
  let b := marker_block s r st in
  firstn 8 b = DELETED_TAG /\ sub b 8 8 = le_bytes 8 r /\ sub b 16 2 = le_bytes 2 (marker_token s b) /\
  nth 18 b 0 = st.
Proof.
  intros b. unfold marker_token.
  change (firstn 16 b) with (DELETED_TAG ++ le_bytes 8 r). change (nth 18 b 0) with st.
  repeat split.
Qed.

Theorem marker_roundtrip sector remaining :
  remaining < 2 ^ 64 ->
  is_complete_marker (marker_block sector remaining RETIREMENT_COMPLETE) sector remaining = true.
Proof.
  intros Hr. destruct (marker_block_fields sector remaining RETIREMENT_COMPLETE) as (T & R & K & S).
  unfold is_complete_marker.
  rewrite marker_block_length, T, S, list_eqb_refl, (u64_at_le _ 8 _ R Hr), (u16_at_le _ 16 _ K (seq_token_lt' _ _)).
  rewrite !N.eqb_refl. reflexivity.
Qed.

(* a record head is never mistaken for a marker and vice versa; a zero block is neither *)
Lemma marker_not_record s r st : u16_at (marker_block s r st) 0 <> SECTOR_MARKER.
Proof. intros E. lazy in E. discriminate E. Qed.

Theorem record_is_not_marker version r :
  firstn 8 (serialize version r) <> DELETED_TAG.
Proof.
  intros E. assert (H : hd 0 (firstn 8 (serialize version r)) = 205) by reflexivity.
  rewrite E in H. discriminate H.
Qed.

Theorem zero_block_is_neither k : (8 <= k)%nat ->
  firstn 8 (zeros k) <> DELETED_TAG /\ u16_at (zeros k) 0 <> SECTOR_MARKER.
Proof.
  intros H. destruct k as [|[|k]]; [lia..|]. split; intros E; [|lazy in E]; discriminate E.
Qed.

(* the token ignores its own two bytes, so stamping twice changes nothing *)
Lemma record_token_splice sector d x y : (4 <= length d)%nat ->
  record_token sector (splice d 2 [x; y]) = record_token sector d.
Proof.
  intros H. destruct d as [|a0 [|a1 [|a2 [|a3 rest]]]]; simpl in H; try lia.
  unfold record_token. cbn [splice overwrite length firstn skipn Nat.leb]. reflexivity.
Qed.

(* With four bytes of d spelled out the stamped extent is d with bytes 2 and 3 replaced, by
   conversion; the key length at offset 4 that header_range_ok reads is not among them. *)
Theorem stamp_self_consistent version sector d :
  header_range_ok version d = true ->
  u16_at (stamp version sector d) 2 = record_token sector (stamp version sector d) /\
  stamp version sector (stamp version sector d) = stamp version sector d /\
  u16_at (stamp version sector d) 2 <> 0.
Proof.
  intros H. unfold stamp. rewrite H.
  assert (L : (4 <= length d)%nat).
  { unfold header_range_ok in H. destruct (Nat.ltb_spec (length d) 6); [discriminate|lia]. }
  destruct d as [|a0 [|a1 [|a2 [|a3 rest]]]]; simpl in L; try lia.
  set (d := a0 :: a1 :: a2 :: a3 :: rest) in *.
  set (tok := record_token sector d). set (d' := splice d 2 (le_bytes 2 tok)).
  assert (T : record_token sector d' = tok) by (apply record_token_splice; exact L).
  assert (U : u16_at d' 2 = tok) by exact (le_num_le_bytes 2 tok (record_token_lt _ _)).
  assert (HR : header_range_ok version d' = true) by exact H.
  rewrite U, T, HR. repeat split. apply record_token_nonzero.
Qed.

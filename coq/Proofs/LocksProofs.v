(* C18: threads that take locks along a nesting relation on which some rank grows cannot all wait
   for one another; the relation extracted from the source (Gen/LockSites.v) is such a relation. *)
From Coq Require Import List NArith Lia.
From Feox Require Import Model.Locks.
Import ListNotations.
Local Open Scope N_scope.

Lemma ranked_lt edges h w : ranked edges = true -> In (h, w) edges -> h < w.
Proof.
  unfold ranked. rewrite forallb_forall. intros H Hin. apply N.ltb_lt, (H _ Hin).
Qed.

Definition wanted (t : thr) : N := match wants t with Some w => w | None => 0 end.

Lemma max_by (f : thr -> N) (l : list thr) : l <> [] -> exists a, In a l /\ forall b, In b l -> f b <= f a.
Proof.
  induction l as [|x t IH]; intros Hne; [congruence|].
  destruct t as [|y u].
  - exists x. split; [now left|]. intros b [<-|[]]. lia.
  - destruct (IH ltac:(discriminate)) as [m [Hm Hmax]].
    destruct (N.le_gt_cases (f x) (f m)) as [Hle|Hgt].
    + exists m. split; [now right|]. intros b [<-|Hb]; auto.
    + exists x. split; [now left|]. intros b [<-|Hb]; [lia|]. specialize (Hmax b Hb). lia.
Qed.

(* When some rank grows along every edge of the nesting relation no set of threads is stuck on each
   other: the thread that waits for the lock of highest rank waits for a lock held by a thread that
   waits for one of higher rank still. *)
Theorem rank_excludes_deadlock (rank : N -> N) edges l :
  (forall h w, In (h, w) edges -> rank h < rank w) -> Forall (follows edges) l -> ~ stuck l.
Proof.
  intros Hr Hall [Hne Hst]. destruct (max_by (fun t => rank (wanted t)) l Hne) as [a [Ha Hmax]].
  destruct (Hst a Ha) as [wa [Hwa [b [Hb Hheld]]]].
  destruct (Hst b Hb) as [wb [Hwb _]].
  rewrite Forall_forall in Hall.
  pose proof (Hr _ _ (Hall b Hb wa wb Hheld Hwb)) as Hlt.
  specialize (Hmax b Hb). unfold wanted in Hmax. rewrite Hwa, Hwb in Hmax. lia.
Qed.

Theorem ranked_edges_exclude_deadlock edges l :
  ranked edges = true -> Forall (follows edges) l -> ~ stuck l.
Proof. intros Hr. apply (rank_excludes_deadlock (fun x => x)). intros h w. apply ranked_lt. exact Hr. Qed.

From Feox Require Import Gen.LockSites.
Lemma lock_edges_ranked : ranked lock_edges = true.
Proof. vm_compute. reflexivity. Qed.

Theorem no_deadlock_on_store_locks l : Forall (follows lock_edges) l -> ~ stuck l.
Proof. apply ranked_edges_exclude_deadlock. exact lock_edges_ranked. Qed.

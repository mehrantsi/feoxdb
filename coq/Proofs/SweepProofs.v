(* C11, concurrent clause: whatever the interleaving of the sweeper, lazy retirements, writers and
   the clock, expiry removes only the key's current generation and only once it has expired. *)
From Coq Require Import List NArith Bool Lia.
From Feox Require Import Model.Sched Model.Sweep Proofs.ListFacts Proofs.AssocProofs.
Import ListNotations.
Local Open Scope N_scope.

Lemma expired_mono g t t' : t <= t' -> expired_at g t = true -> expired_at g t' = true.
Proof.
  unfold expired_at. rewrite !andb_true_iff, !N.ltb_lt. intros Hle [H1 H2]. split; [exact H1 | lia].
Qed.

Lemma unexpired_mono g t t' : t <= t' -> expired_at g t' = false -> expired_at g t = false.
Proof.
  intros Hle H. destruct (expired_at g t) eqn:E; [|reflexivity].
  rewrite (expired_mono _ _ _ Hle E) in H. discriminate.
Qed.

(* [g] was picked up for [k] earlier, by the sweeper's sample or by a caller that saw it expired:
   its identity has been handed out, and if the entry still carries that identity it still holds [g]. *)
Definition picked_ok (s : sstate) (k : N) (g : sgen) : Prop :=
  sg_id g < ss_nid s /\ forall c, aget k (ss_tbl s) = Some c -> sg_id c = sg_id g -> c = g.

Record SwInv (s : sstate) : Prop := {
  sw_snow : ss_snow s <= ss_now s;
  sw_tbl : forall k c, aget k (ss_tbl s) = Some c -> sg_id c < ss_nid s;
  sw_cand : forall k g, aget k (ss_cand s) = Some g -> picked_ok s k g;
  sw_lazy : forall i k g t, aget i (ss_lazy s) = Some (k, g, t) -> t <= ss_now s /\ picked_ok s k g;
  sw_log : forall r, In r (ss_log s) -> expired_at (r_gen r) (r_clock r) = true
}.

Lemma sinit_inv : SwInv sinit.
Proof. split; cbn; intros; try discriminate; try lia; contradiction. Qed.

Lemma guarded_remove_spec s k g clock sw :
  clock <= ss_now s -> picked_ok s k g ->
  guarded_remove s k g clock sw = s \/
  (exists c, aget k (ss_tbl s) = Some c /\ expired_at c (ss_now s) = true /\
     guarded_remove s k g clock sw =
     mkss (adel k (ss_tbl s)) (ss_now s) (ss_nid s) (ss_snow s) (ss_cand s) (ss_lazy s)
          (mkrem k c (ss_now s) sw :: ss_log s)).
Proof.
  intros Hclock [_ Huniq]. unfold guarded_remove.
  destruct (aget k (ss_tbl s)) as [c|] eqn:Hc; [|left; reflexivity].
  destruct ((sg_id c =? sg_id g) && expired_at (if sw then g else c) clock) eqn:Hcond; [|left; reflexivity].
  right. apply andb_true_iff in Hcond. destruct Hcond as [Hid Hexp]. apply N.eqb_eq in Hid.
  pose proof (Huniq c eq_refl Hid) as ->.
  exists g. split; [reflexivity|]. split; [|reflexivity].
  destruct sw; exact (expired_mono _ _ _ Hclock Hexp).
Qed.

Lemma current_picked_ok s k g : SwInv s -> aget k (ss_tbl s) = Some g -> picked_ok s k g.
Proof. intros Hinv Hk. split; [exact (sw_tbl s Hinv k g Hk) | congruence]. Qed.

Lemma SwInv_table s tbl' nid' log' :
  SwInv s -> ss_nid s <= nid' ->
  (forall k c, aget k tbl' = Some c -> aget k (ss_tbl s) = Some c \/ ss_nid s <= sg_id c < nid') ->
  (forall r, In r log' -> In r (ss_log s) \/ expired_at (r_gen r) (r_clock r) = true) ->
  SwInv (mkss tbl' (ss_now s) nid' (ss_snow s) (ss_cand s) (ss_lazy s) log').
Proof.
  intros Hinv Hnid Ht Hlog. set (s' := mkss _ _ _ _ _ _ _).
  assert (Hext : forall k g, picked_ok s k g -> picked_ok s' k g).
  { intros k g [Hlt Hu]. split; [cbn; lia|]. intros c Hc Hid.
    destruct (Ht k c Hc) as [E|E]; [exact (Hu c E Hid) | lia]. }
  split; cbn.
  - exact (sw_snow s Hinv).
  - intros k c Hc. destruct (Ht k c Hc) as [E|E]; [pose proof (sw_tbl s Hinv k c E)|]; lia.
  - intros k g Hk. exact (Hext k g (sw_cand s Hinv k g Hk)).
  - intros i k g t Hi. destruct (sw_lazy s Hinv i k g t Hi). auto.
  - intros r Hr. destruct (Hlog r Hr); auto using (sw_log s Hinv).
Qed.

(* What event [e] may do to the entry of [k]: nothing; anything, if it is a client's write to [k],
   but a generation it leaves there is new; or remove the current generation, which has expired. *)
Definition entry_step (e : sev) (k : N) (s s' : sstate) : Prop :=
  aget k (ss_tbl s') = aget k (ss_tbl s) \/
  (client_write_on k e = true /\ forall c, aget k (ss_tbl s') = Some c -> ss_nid s <= sg_id c) \/
  (exists g, aget k (ss_tbl s) = Some g /\ aget k (ss_tbl s') = None /\ expired_at g (ss_now s) = true).

Definition step_ok (e : sev) (s s' : sstate) : Prop :=
  SwInv s' /\ ss_now s <= ss_now s' /\ ss_nid s <= ss_nid s' /\ forall k, entry_step e k s s'.

(* Of the state it starts from, [step_ok] reads only the table, the clock and the next identity. *)
Lemma step_ok_from e s0 s s' :
  ss_tbl s0 = ss_tbl s -> ss_now s0 = ss_now s -> ss_nid s0 = ss_nid s -> step_ok e s0 s' -> step_ok e s s'.
Proof. unfold step_ok, entry_step. intros -> -> ->. exact (fun H => H). Qed.

Lemma step_ok_refl e s : SwInv s -> step_ok e s s.
Proof. intros Hinv. unfold step_ok, entry_step. intuition lia. Qed.

Lemma private_ok e s now' snow' cand' lazy' :
  SwInv s -> ss_now s <= now' -> snow' <= now' ->
  (forall k g, aget k cand' = Some g -> aget k (ss_cand s) = Some g \/ aget k (ss_tbl s) = Some g) ->
  (forall i k g t, aget i lazy' = Some (k, g, t) ->
     aget i (ss_lazy s) = Some (k, g, t) \/ (aget k (ss_tbl s) = Some g /\ t <= now')) ->
  step_ok e s (mkss (ss_tbl s) now' (ss_nid s) snow' cand' lazy' (ss_log s)).
Proof.
  intros Hinv Hnow Hsn Hc Hl. split; [|split; [exact Hnow|split; [cbn; lia|left; reflexivity]]].
  split; cbn.
  - exact Hsn.
  - exact (sw_tbl s Hinv).
  - intros k g Hk. destruct (Hc k g Hk) as [E|E]; [exact (sw_cand s Hinv k g E) | exact (current_picked_ok s k g Hinv E)].
  - intros i k g t Hi. destruct (Hl i k g t Hi) as [E|[E Et]].
    + destruct (sw_lazy s Hinv i k g t E) as [Hle Hp]. split; [lia | exact Hp].
    + split; [exact Et | exact (current_picked_ok s k g Hinv E)].
  - exact (sw_log s Hinv).
Qed.

Lemma publish_ok e s k x v : client_write_on k e = true -> SwInv s -> step_ok e s (publish s k x v).
Proof.
  intros He Hinv. split; [|split; [cbn; lia|split; [cbn; lia|]]].
  - apply SwInv_table; [exact Hinv | lia | | auto].
    intros k' c Hc. destruct (aget_aset_some _ _ _ _ _ Hc) as [[_ ->]|[_ E]]; [right; cbn; lia | left; exact E].
  - intros k'. unfold entry_step. cbn [publish ss_tbl]. rewrite aget_aset.
    destruct (N.eqb_spec k' k) as [->|_]; [right; left | left; reflexivity].
    split; [exact He|]. intros c [= <-]. cbn. lia.
Qed.

Lemma delete_ok e s k : client_write_on k e = true -> SwInv s -> step_ok e s (set_tbl s (adel k (ss_tbl s))).
Proof.
  intros He Hinv. split; [|split; [cbn; lia|split; [cbn; lia|]]].
  - apply SwInv_table; [exact Hinv | lia | | auto].
    intros k' c Hc. left. exact (proj1 (aget_adel_some _ _ _ _ Hc)).
  - intros k'. unfold entry_step. cbn [set_tbl ss_tbl]. rewrite aget_adel.
    destruct (N.eqb_spec k' k) as [->|_]; [right; left | left; reflexivity].
    split; [exact He | discriminate].
Qed.

Lemma guarded_remove_ok e s k g clock sw :
  SwInv s -> clock <= ss_now s -> picked_ok s k g -> step_ok e s (guarded_remove s k g clock sw).
Proof.
  intros Hinv Hclock Hp.
  destruct (guarded_remove_spec s k g clock sw Hclock Hp) as [->|(c & Hk & Hex & ->)]; [exact (step_ok_refl e s Hinv)|].
  split; [|split; [cbn; lia|split; [cbn; lia|]]].
  - apply SwInv_table; [exact Hinv | lia | |].
    + intros k' c' Hc. left. exact (proj1 (aget_adel_some _ _ _ _ Hc)).
    + intros r [<-|Hr]; [right; exact Hex | left; exact Hr].
  - intros k'. unfold entry_step. cbn [ss_tbl]. rewrite aget_adel.
    destruct (N.eqb_spec k' k) as [->|_]; [right; right; exists c; auto | left; reflexivity].
Qed.

Lemma sstep_ok s e : SwInv s -> step_ok e s (fst (sstep s e)).
Proof.
  intros Hinv. pose proof (sw_snow s Hinv) as Hsn.
  destruct e as [d|k x v|k x|k|k| |k|i k|i|k d]; cbn [sstep].
  - apply private_ok; auto; lia.
  - apply publish_ok; [apply N.eqb_refl | exact Hinv].
  - destruct (aget k (ss_tbl s)) as [g|]; [destruct (expired_at g (ss_now s))|]; cbn [fst];
      [apply step_ok_refl | apply publish_ok; [apply N.eqb_refl|] | apply step_ok_refl]; exact Hinv.
  - destruct (aget k (ss_tbl s)); cbn [fst];
      [apply delete_ok; [apply N.eqb_refl|] | apply step_ok_refl]; exact Hinv.
  - destruct (aget k (ss_tbl s)); apply step_ok_refl; exact Hinv.
  - apply private_ok; auto; lia.
  - destruct (aget k (ss_cand s)) as [g|] eqn:Hg; [|auto using step_ok_refl]. cbv zeta.
    set (s1 := mkss _ _ _ _ (adel k (ss_cand s)) _ _).
    assert (S1 : step_ok (EProc k) s s1).
    { apply private_ok; auto; try lia. intros k' g' H. left. exact (proj1 (aget_adel_some _ _ _ _ H)). }
    destruct (expired_at g (ss_snow s)); [|exact S1].
    (* [s1] is [s] with one candidate less (below: one lazy pick less), and neither [picked_ok] nor
       the start state of [step_ok] looks at those lists *)
    apply (step_ok_from _ s1 s); [reflexivity..|].
    exact (guarded_remove_ok (EProc k) s1 k g (ss_snow s) true (proj1 S1) Hsn (sw_cand s Hinv k g Hg)).
  - destruct (aget k (ss_tbl s)) as [g|] eqn:Hg; [destruct (expired_at g (ss_now s))|];
      [|auto using step_ok_refl..].
    apply private_ok; auto; try lia. intros i' k' g' t' H.
    destruct (aget_aset_some _ _ _ _ _ H) as [[_ [= -> -> ->]]|[_ E]]; [right; split; [exact Hg | lia] | left; exact E].
  - destruct (aget i (ss_lazy s)) as [[[k g] t]|] eqn:Hi; [|auto using step_ok_refl]. cbv zeta.
    set (s1 := mkss _ _ _ _ _ (adel i (ss_lazy s)) _).
    assert (S1 : step_ok (ELazyRetire i) s s1).
    { apply private_ok; auto; try lia. intros i' k' g' t' H. left. exact (proj1 (aget_adel_some _ _ _ _ H)). }
    destruct (sw_lazy s Hinv i k g t Hi) as [Ht Hp].
    apply (step_ok_from _ s1 s); [reflexivity..|].
    exact (guarded_remove_ok (ELazyRetire i) s1 k g t false (proj1 S1) Ht Hp).
  - destruct (aget k (ss_tbl s)) as [g|]; [destruct (expired_at g (ss_now s))|]; cbn [fst];
      [apply step_ok_refl | apply publish_ok; [apply N.eqb_refl|] | apply publish_ok; [apply N.eqb_refl|]]; exact Hinv.
Qed.

Lemma sfinal_fold es : forall s, sfinal s es = fold_left (fun s e => fst (sstep s e)) es s.
Proof.
  unfold sfinal. induction es as [|e t IH]; intros s; [reflexivity|].
  cbn [srun fold_left]. rewrite <- IH. destruct (sstep s e) as [s1 o]. cbn [fst]. destruct (srun s1 t). reflexivity.
Qed.

Lemma srun_inv es s : SwInv s -> SwInv (sfinal s es).
Proof. rewrite sfinal_fold. apply fold_left_inv. intros s1 e I1. exact (proj1 (sstep_ok s1 e I1)). Qed.

(* While nobody writes or deletes the key, its entry is what it was, or it has been removed by
   expiry and the generation it held is expired at the present clock. *)
Theorem quiet_entry es s k :
  SwInv s -> forallb (fun e => negb (client_write_on k e)) es = true ->
  aget k (ss_tbl (sfinal s es)) = aget k (ss_tbl s) \/
  (aget k (ss_tbl (sfinal s es)) = None /\
   exists g, aget k (ss_tbl s) = Some g /\ expired_at g (ss_now (sfinal s es)) = true).
Proof.
  intros Hinv Hes. rewrite sfinal_fold.
  refine (proj2 (fold_left_inv_guarded _ _
    (fun s' => SwInv s' /\ (aget k (ss_tbl s') = aget k (ss_tbl s) \/
       (aget k (ss_tbl s') = None /\ exists g, aget k (ss_tbl s) = Some g /\ expired_at g (ss_now s') = true)))
    _ es s Hes (conj Hinv (or_introl eq_refl)))).
  intros s1 e He [I1 H1]. apply negb_true_iff in He.
  destruct (sstep_ok s1 e I1) as (I2 & Hnow & _ & Hent). split; [exact I2|].
  destruct (Hent k) as [E|[[E _]|(g & Eg & En & Ex)]]; [rewrite E | congruence | right].
  - destruct H1 as [H1|(Hn & g & Hg & Hx)]; [left; exact H1 | right; eauto using expired_mono].
  - split; [exact En|]. exists g. destruct H1 as [H1|[Hn _]]; [|congruence].
    split; [congruence | eauto using expired_mono].
Qed.

(* While nobody writes or deletes the key, its current generation stays in the table for
   as long as it is unexpired -- through any number of sweeper batches, lazy retirements by other
   callers, writes to other keys and clock ticks, in any order *)
Theorem unexpired_generation_survives es : forall s k g,
  SwInv s -> forallb (fun e => negb (client_write_on k e)) es = true ->
  aget k (ss_tbl s) = Some g ->
  expired_at g (ss_now (sfinal s es)) = false ->
  aget k (ss_tbl (sfinal s es)) = Some g.
Proof.
  intros s k g Hinv Hes Hg Hun.
  destruct (quiet_entry es s k Hinv Hes) as [E|(_ & g0 & Hg0 & Hx)]; congruence.
Qed.

(* ... and a read at the end returns its value *)
Corollary unexpired_key_is_readable es s k g :
  SwInv s -> forallb (fun e => negb (client_write_on k e)) es = true ->
  aget k (ss_tbl s) = Some g -> expired_at g (ss_now (sfinal s es)) = false ->
  snd (sstep (sfinal s es) (EGet k)) = SVal (Some (sg_val g)).
Proof.
  intros Hinv Hes Hg Hun. cbn [sstep]. rewrite (unexpired_generation_survives es s k g Hinv Hes Hg Hun). rewrite Hun. reflexivity.
Qed.

(* Every removal by expiry ever made, by the sweeper or lazily, took out a generation that
   was expired at the wall clock of the removal *)
Theorem expiry_removes_only_expired es r :
  In r (ss_log (sfinal sinit es)) -> expired_at (r_gen r) (r_clock r) = true.
Proof. exact (sw_log _ (srun_inv es sinit sinit_inv) r). Qed.

(* One event changes a key's entry only by a client's write to that key, or by removing
   its current, expired generation (which is logged) *)
Theorem entry_changes_only_by_write_or_expiry es e k :
  let s := sfinal sinit es in
  let s' := fst (sstep s e) in
  aget k (ss_tbl s') = aget k (ss_tbl s) \/ client_write_on k e = true \/
  (exists g, aget k (ss_tbl s) = Some g /\ aget k (ss_tbl s') = None /\ expired_at g (ss_now s) = true).
Proof.
  destruct (sstep_ok _ e (srun_inv es sinit sinit_inv)) as (_ & _ & _ & Hent).
  destruct (Hent k) as [E|[[E _]|E]]; auto.
Qed.

(* No older generation ever reappears: the identities a key's entry goes through only
   grow, and a key removed by expiry stays absent until a client writes it again *)
Theorem generations_only_move_forward es : forall s k g g',
  SwInv s -> aget k (ss_tbl s) = Some g -> aget k (ss_tbl (sfinal s es)) = Some g' -> sg_id g <= sg_id g'.
Proof.
  intros s k g g' Hinv Hg. rewrite sfinal_fold. intros Hf.
  (* every identity handed out from [s] on is above that of [g] *)
  refine (proj2 (proj2 (fold_left_inv _
    (fun s' => SwInv s' /\ sg_id g < ss_nid s' /\ forall c, aget k (ss_tbl s') = Some c -> sg_id g <= sg_id c)
    _ es s _)) g' Hf).
  - intros s1 e (I1 & Hlt & Hge). destruct (sstep_ok s1 e I1) as (I2 & _ & Hnid & Hent).
    split; [exact I2|]. split; [lia|]. intros c Hc.
    destruct (Hent k) as [E|[[_ E]|(g0 & _ & E & _)]]; [|specialize (E c Hc); lia|congruence].
    apply Hge. rewrite <- E. exact Hc.
  - split; [exact Hinv|]. split; [exact (sw_tbl s Hinv k g Hg)|].
    intros c Hc. replace c with g by congruence. lia.
Qed.

Theorem expired_key_stays_absent es : forall s k,
  SwInv s -> aget k (ss_tbl s) = None ->
  forallb (fun e => negb (client_write_on k e)) es = true ->
  aget k (ss_tbl (sfinal s es)) = None.
Proof.
  intros s k Hinv Hn Hes. destruct (quiet_entry es s k Hinv Hes) as [E|[E _]]; congruence.
Qed.

(* A read never returns a generation that is expired at the clock of the read *)
Theorem get_never_returns_expired s k v :
  snd (sstep s (EGet k)) = SVal (Some v) ->
  exists g, aget k (ss_tbl s) = Some g /\ expired_at g (ss_now s) = false /\ sg_val g = v.
Proof.
  cbn [sstep]. destruct (aget k (ss_tbl s)) as [g|]; cbn; [|discriminate].
  destruct (expired_at g (ss_now s)) eqn:E; intros [= <-]. eauto.
Qed.

(* Model.Extent.set_nth, Model.MemLimit.set_nth, Model.Sched.set_nth and Model.InFlight.set are one
   function written four times: what is stated here of the first holds of the others by
   conversion. *)
From Coq Require Import List Arith Lia.
From Feox Require Import Model.Extent.

Lemma length_set_nth {A} (l : list A) i a : length (set_nth i a l) = length l.
Proof. revert i. induction l as [|x t IH]; intros [|i]; cbn; try reflexivity. rewrite IH. reflexivity. Qed.

Lemma nth_error_set_nth_same {A} (l : list A) i a x : nth_error l i = Some x -> nth_error (set_nth i a l) i = Some a.
Proof. revert i. induction l as [|y t IH]; intros [|i] H; cbn in *; try discriminate; [reflexivity | exact (IH i H)]. Qed.

Lemma nth_error_set_nth_other {A} (l : list A) i j a : i <> j -> nth_error (set_nth i a l) j = nth_error l j.
Proof.
  revert i j. induction l as [|y t IH]; intros [|i] [|j] Hne; cbn; try reflexivity; try congruence.
  apply IH. congruence.
Qed.

Lemma nth_error_set_nth_inv {A} (l : list A) i j a x y :
  nth_error l i = Some x -> nth_error (set_nth i a l) j = Some y ->
  (j = i /\ y = a) \/ (j <> i /\ nth_error l j = Some y).
Proof.
  intros Hi Hj. destruct (Nat.eq_dec i j) as [<-|Hne].
  - rewrite (nth_error_set_nth_same _ _ _ _ Hi) in Hj. left. split; congruence.
  - rewrite (nth_error_set_nth_other _ _ _ _ Hne) in Hj. right. split; congruence.
Qed.

Lemma nth_set_nth_same {A} (l : list A) i a d : i < length l -> nth i (set_nth i a l) d = a.
Proof. revert i. induction l as [|x t IH]; intros [|i] H; cbn in *; try lia; [reflexivity | apply IH; lia]. Qed.

Lemma nth_set_nth_other {A} (l : list A) i j a d : i <> j -> nth j (set_nth i a l) d = nth j l d.
Proof.
  revert i j. induction l as [|x t IH]; intros [|i] [|j] H; cbn; try reflexivity; try congruence.
  apply IH. congruence.
Qed.

Lemma Forall_set_nth {A} (P : A -> Prop) l i a : Forall P l -> P a -> Forall P (set_nth i a l).
Proof.
  revert i. induction l as [|x r IH]; intros [|i] Hl Ha; cbn; try constructor; inversion Hl; subst; auto.
Qed.

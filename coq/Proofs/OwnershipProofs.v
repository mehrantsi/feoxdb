(* C05: ownership of the data area.  Every block of [DS, device sectors) is either free (in the
   free-space manager) or owned by exactly one extent handed out by it; extents that are given
   back are always accepted (nothing leaks); with nothing owned the run list is the fresh one.
   The ledger here ([own], [ostep]) is a client that only acquires and gives back.  The write path
   of Model/FailPath.v has its own statement of the same partition, FailPathProofs.Owned, which
   counts how many extents cover a block instead of asking for pairwise disjointness, because
   there the extents are regrouped and permuted; neither ledger is derived from the other. *)
From Coq Require Import List NArith Bool Lia.
From Feox Require Import Gen.Constants Model.FreeSpace Proofs.ListFacts Proofs.FreeSpaceProofs.
Import ListNotations.
Local Open Scope N_scope.

Record own := mkown { ofs : fs; owned : list (N * N) }.

Definition in_ext (b : N) (e : N * N) : Prop := fst e <= b /\ b < fst e + snd e.
Definition owned_blk (o : own) (b : N) : Prop := exists e, In e (owned o) /\ in_ext b e.

Inductive oop := OAcquire (n : N) | OGiveBack (e : N * N).

Definition ext_eqb (x y : N * N) : bool := (fst x =? fst y) && (snd x =? snd y).
Fixpoint remove_ext (e : N * N) (l : list (N * N)) : list (N * N) :=
  match l with [] => [] | x :: t => if ext_eqb x e then t else x :: remove_ext e t end.
Fixpoint mem_ext (e : N * N) (l : list (N * N)) : bool :=
  match l with [] => false | x :: t => ext_eqb x e || mem_ext e t end.

Definition ostep (o : own) (op : oop) : own :=
  match op with
  | OAcquire n =>
      match alloc n (ofs o) with
      | (FOk a, f') => mkown f' ((a, n) :: owned o)
      | (FErr _, f') => mkown f' (owned o)
      end
  | OGiveBack e =>
      if mem_ext e (owned o) then
        match release (fst e) (snd e) (ofs o) with
        | (FOk _, f') => mkown f' (remove_ext e (owned o))
        | (FErr _, f') => mkown f' (owned o)
        end
      else o
  end.

Fixpoint disjoint_exts (l : list (N * N)) : Prop :=
  match l with
  | [] => True
  | e :: t => (forall e' b, In e' t -> in_ext b e -> ~ in_ext b e') /\ disjoint_exts t
  end.

(* the allocator is consistent; in the data area free and owned are complementary; the owned
   extents are non-empty, inside the data area and pairwise disjoint *)
Record OInv (o : own) : Prop := {
  oi_fs : Inv (ofs o);
  oi_part : forall b, FEOX_DATA_START_BLOCK <= b < dev_sectors (ofs o) -> (free (ofs o) b <-> ~ owned_blk o b);
  oi_bounds : forall e, In e (owned o) -> FEOX_DATA_START_BLOCK <= fst e /\ 0 < snd e /\ fst e + snd e <= dev_sectors (ofs o);
  oi_disj : disjoint_exts (owned o)
}.

Lemma ext_eqb_eq x y : ext_eqb x y = true <-> x = y.
Proof.
  unfold ext_eqb. rewrite andb_true_iff, !N.eqb_eq. destruct x, y; simpl. split; [intros [-> ->]; auto|intros [= -> ->]; auto].
Qed.

Lemma in_ext_dec b e : in_ext b e \/ ~ in_ext b e.
Proof. exact (inr_dec b e). Qed.

Lemma mem_ext_In e l : mem_ext e l = true <-> In e l.
Proof.
  induction l as [|x t IH]; simpl; [split; [discriminate|tauto]|].
  rewrite orb_true_iff, IH, ext_eqb_eq. tauto.
Qed.

(* an extent is a run, and the owned blocks are the "free set" of the extent list: the lemmas
   about freel apply to them *)
Lemma owned_blk_freel o b : owned_blk o b <-> freel (owned o) b.
Proof. reflexivity. Qed.

Lemma disjoint_exts_In l e e' b : disjoint_exts l -> In e l -> In e' l -> e <> e' ->
  in_ext b e -> ~ in_ext b e'.
Proof.
  induction l as [|y t IH]; simpl; [tauto|].
  intros (D1 & D2) [<-|H] [<-|H'] Hne Hi Hi';
    [congruence|exact (D1 _ _ H' Hi Hi')|exact (D1 _ _ H Hi' Hi)|exact (IH D2 H H' Hne Hi Hi')].
Qed.

Lemma remove_ext_incl e l x : In x (remove_ext e l) -> In x l.
Proof. induction l as [|y t IH]; simpl; [tauto|]. destruct (ext_eqb y e); simpl; tauto. Qed.

Lemma In_remove_ext e l x : disjoint_exts l -> (forall y, In y l -> 0 < snd y) ->
  (In x (remove_ext e l) <-> In x l /\ x <> e).
Proof.
  induction l as [|y t IH]; simpl; intros D P; [tauto|].
  destruct D as (D1 & D2). destruct (ext_eqb y e) eqn:E.
  - apply ext_eqb_eq in E. subst y. split.
    + intros Hx. split; auto. intros ->.
      (* e would overlap itself further down the list *)
      assert (in_ext (fst e) e) by (unfold in_ext; specialize (P e (or_introl eq_refl)); lia).
      eapply D1; eauto.
    + intros ([<-|Hx] & Hne); [congruence|auto].
  - simpl. rewrite IH by auto. split.
    + intros [<-|(Hx & Hne)]; [|auto]. split; auto. intros ->.
      rewrite (proj2 (ext_eqb_eq e e) eq_refl) in E. discriminate.
    + intros ([<-|Hx] & Hne); auto.
Qed.

Lemma disjoint_remove e l : disjoint_exts l -> disjoint_exts (remove_ext e l).
Proof.
  induction l as [|y t IH]; simpl; auto. intros (D1 & D2). destruct (ext_eqb y e); auto.
  simpl. split; auto. intros e' b Hin. apply D1. eapply remove_ext_incl; eauto.
Qed.

Lemma owned_remove e l b : disjoint_exts l -> (forall y, In y l -> 0 < snd y) -> In e l ->
  (freel (remove_ext e l) b <-> freel l b /\ ~ in_ext b e).
Proof.
  intros D P He. apply freel_without.
  - intros x. apply In_remove_ext; auto.
  - intros x b' Hx Hne. exact (disjoint_exts_In l x e b' D Hx He Hne).
Qed.

Lemma owned_release_ok o e : OInv o -> In e (owned o) -> release_ok (fst e) (snd e) (ofs o).
Proof.
  intros [HF HP HB HD] Hin. destruct (HB e Hin) as (B1 & B2 & B3). repeat split; auto.
  intros b Hb Hf. apply (proj1 (HP b ltac:(lia)) Hf). exists e. split; auto.
Qed.

(* giving back an owned extent is always accepted: nothing can leak *)
Theorem give_back_accepted o e : OInv o -> In e (owned o) ->
  exists f', release (fst e) (snd e) (ofs o) = (FOk tt, f').
Proof.
  intros HI Hin.
  destruct (release_accepts _ _ _ (oi_fs _ HI) (owned_release_ok o e HI Hin)) as (f' & E & _). eauto.
Qed.

Theorem ostep_OInv o op : OInv o -> OInv (ostep o op).
Proof.
  intros HI. pose proof HI as [HF HP HB HD]. destruct op as [n|e]; simpl.
  - destruct (alloc_cases n (ofs o) HF) as [(_ & E)|[(_ & _ & E)|(Hn & a & s' & E & P)]];
      rewrite E; simpl; [constructor; auto..|].
    destruct P as (Pa & Pb & Pc & PI & PD & PF). pose proof (dev_sectors_same _ _ PD) as DS'.
    constructor; simpl; rewrite ?DS'; auto.
    + intros b Hb. rewrite PF, (HP b Hb), !owned_blk_freel. simpl owned. rewrite freel_cons.
      unfold inr; simpl. clear. tauto.
    + intros e' [<-|Hin]; simpl; [lia|auto].
    + split; auto. intros e' b Hin Hi Hi'. unfold in_ext in Hi; simpl in Hi.
      apply (proj1 (HP b ltac:(lia)) (Pc b Hi)). exists e'; auto.
  - destruct (mem_ext e (owned o)) eqn:M; [|constructor; auto]. apply mem_ext_In in M.
    destruct (release_accepts _ _ _ HF (owned_release_ok o e HI M)) as (s' & E & PI & PD & PF).
    rewrite E; simpl. pose proof (dev_sectors_same _ _ PD) as DS'.
    assert (POS : forall y, In y (owned o) -> 0 < snd y) by (intros y Hy; apply HB; auto).
    constructor; simpl; rewrite ?DS'; auto.
    + intros b Hb. rewrite PF, (HP b Hb), !owned_blk_freel. simpl owned.
      rewrite (owned_remove e _ b HD POS M).
      pose proof (in_ext_dec b e) as DEC. fold (in_ext b e). clear - DEC. tauto.
    + intros e' Hin. apply In_remove_ext in Hin; auto. apply HB, Hin.
    + apply disjoint_remove; auto.
Qed.

(* with nothing owned the run list is the fresh one: one run covering the whole data area *)
Theorem emptied_is_fresh o : OInv o -> owned o = [] ->
  runs (ofs o) = [(FEOX_DATA_START_BLOCK, dev_sectors (ofs o) - FEOX_DATA_START_BLOCK)].
Proof.
  intros [HF HP HB HD] HE. destruct HF as [D U W T F].
  apply (wf_canonical (dev_sectors (ofs o)) _ FEOX_DATA_START_BLOCK); auto.
  - cbn [wf fst snd]. repeat split; auto; lia.
  - intros b. split.
    + intros Hf. destruct (freel_ge _ _ _ _ W Hf). eexists. split; [left; reflexivity|]. unfold inr; cbn [fst snd]; lia.
    + intros (r & [<-|[]] & (A & B)). cbn [fst snd] in *.
      apply (proj2 (HP b ltac:(lia))). intros (e & Hin & _). rewrite HE in Hin. destruct Hin.
Qed.

Definition orun (o : own) (ops : list oop) : own := fold_left ostep ops o.

Theorem orun_OInv ops : forall o, OInv o -> OInv (orun o ops).
Proof. exact (fold_left_inv ostep OInv ostep_OInv ops). Qed.

Lemma fresh_OInv d s0 : d < U64 -> initialize d = FOk s0 -> OInv (mkown s0 []).
Proof.
  intros Hd Hi. destruct (initialize_Inv d s0 Hi Hd) as (I & D & F).
  constructor; simpl; auto.
  - intros b Hb. rewrite F. unfold dev_sectors in Hb. rewrite D in Hb. split.
    + intros _ (e & [] & _).
    + intros _. lia.
  - intros e [].
Qed.

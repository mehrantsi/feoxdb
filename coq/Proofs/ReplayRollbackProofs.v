(* C03 / C02 / C09 at the byte level: a crashed batch is rolled back.  A file at rest whose journal
   is ACTIVE and names the extent of one record (the batch that was being written when the process
   died): the open replays the journal -- the extent is overwritten with a completed run of
   retirement markers and a CLEAR record is written -- and then reads the file like any file at
   rest: every other record is reported and the key count is theirs, the blocks of the journaled
   record are free, and the file the open leaves behind is itself a file at rest. *)
From Coq Require Import List NArith Bool Lia Arith.
From Feox Require Import Gen.Constants Model.Bytes Model.Codec
                         Model.FreeSpace Proofs.FreeSpaceProofs Model.MetaJournal Model.Recovery
                         Proofs.MetaJournalProofs Proofs.ScanAcceptsProofs Proofs.ScanQuiescentProofs
                         Proofs.ListFacts Proofs.RecoveryProofs Proofs.JournalLayoutProofs Proofs.RetireContainedProofs.
Import ListNotations.
Local Open Scope N_scope.

Lemma ilayout_app version : forall a sector b,
  ilayout version sector (a ++ b) = ilayout version sector a ++ ilayout version (sector + isum version a) b.
Proof.
  induction a as [|it t IH]; intros sector b; cbn [app ilayout isum]; [rewrite N.add_0_r; reflexivity|].
  rewrite IH, <- app_assoc. f_equal. f_equal. f_equal. lia.
Qed.

Lemma isum_app version a b : isum version (a ++ b) = isum version a + isum version b.
Proof. induction a as [|it t IH]; cbn [app isum]; [reflexivity|]. rewrite IH. lia. Qed.

Lemma recs_of_app a b : recs_of (a ++ b) = recs_of a ++ recs_of b.
Proof. induction a as [|[r|n|] t IH]; cbn [app recs_of]; rewrite ?IH; reflexivity. Qed.

Lemma set_blocks_at_boundary (pre mid post bs : image) s :
  N.of_nat (length pre) = s -> length bs = length mid ->
  set_blocks (pre ++ mid ++ post) s bs = pre ++ bs ++ post.
Proof.
  intros <- L. unfold set_blocks. rewrite Nat2N.id, firstn_app_length by reflexivity.
  rewrite (firstn_all2 bs) by (rewrite !app_length; lia).
  rewrite skipn_add, skipn_app_length, L, skipn_app_length. reflexivity.
Qed.

Lemma skipn_set_blocks img s bs : (N.to_nat s + length bs <= length img)%nat ->
  skipn (N.to_nat s) (set_blocks img s bs) = bs ++ skipn (N.to_nat s + length bs) img.
Proof.
  intros H. unfold set_blocks.
  rewrite skipn_app, skipn_all2, firstn_length, Nat.min_l, Nat.sub_diag, firstn_all2 by (rewrite ?firstn_length; lia).
  reflexivity.
Qed.

Lemma ilayout_replace v (hd : image) s0 its1 it it' its2 :
  N.of_nat (length hd) = s0 -> Forall (item_ok v) its1 -> isize v it' = isize v it ->
  length (iblocks v (s0 + isum v its1) it') = length (iblocks v (s0 + isum v its1) it) ->
  set_blocks (hd ++ ilayout v s0 (its1 ++ it :: its2)) (s0 + isum v its1) (iblocks v (s0 + isum v its1) it')
  = hd ++ ilayout v s0 (its1 ++ it' :: its2).
Proof.
  intros Lhd Hok Hsz Hlen. rewrite !ilayout_app. cbn [ilayout]. rewrite Hsz, !(app_assoc hd).
  apply set_blocks_at_boundary; [|exact Hlen]. rewrite app_length, ilayout_length by exact Hok. lia.
Qed.

(* the file a replay of the one-extent journal [(s, n)] at position (jgen, jslot) leaves behind *)
Definition rolled_back (img : image) (jgen jslot s n : N) : image :=
  let q := jnext (mkjpos jgen jslot) in
  write_journal (write_markers img [(s, n)]) (j_slot q) (j_gen q) JOURNAL_CLEAR [].

Lemma replay_single img jgen jslot s n : 0 < n -> jgen < U64MAX ->
  replay img (mkjpos jgen jslot) [(s, n)] = ReplayOk (rolled_back img jgen jslot s n) (jnext (mkjpos jgen jslot)).
Proof.
  intros Hn Hg. unfold replay, coalesce. cbn [sort_by_start fold_right insert_by_start coalesce_sorted].
  destruct (N.eqb_spec n 0); [lia|]. cbn [rev app].
  unfold jnext_ok. cbn [j_gen]. rewrite (proj2 (N.ltb_lt _ _) Hg). reflexivity.
Qed.

Lemma rolled_back_agree img jgen jslot s n :
  let first := N.to_nat (ALLOCATION_JOURNAL_START_BLOCK + j_slot (jnext (mkjpos jgen jslot)) * ALLOCATION_JOURNAL_SLOT_BLOCKS) in
  agree_on (fun k => (k < first \/ first + N.to_nat ALLOCATION_JOURNAL_SLOT_BLOCKS <= k)%nat /\ ~ s <= N.of_nat k < s + n)
           img (rolled_back img jgen jslot s n).
Proof.
  intros first. unfold rolled_back. eapply agree_on_trans.
  - eapply agree_on_weaken; [|apply (write_markers_agree [(s, n)])].
    intros k [_ Hk] Hin. apply in_exts_cons in Hin. destruct Hin as [Hin|(? & ? & [] & _)]. exact (Hk Hin).
  - eapply agree_on_weaken; [|apply journal_write_agree, N.le_0_l]. intros k [Hk _]. exact Hk.
Qed.

Lemma rolled_back_layout v img jgen jslot its1 r its2 :
  (N.to_nat FEOX_DATA_START_BLOCK <= length img)%nat -> Forall (item_ok v) its1 ->
  skipn (N.to_nat FEOX_DATA_START_BLOCK) img = ilayout v FEOX_DATA_START_BLOCK (its1 ++ IRec r :: its2) ->
  let s := FEOX_DATA_START_BLOCK + isum v its1 in
  let n := need_of v r in
  skipn (N.to_nat FEOX_DATA_START_BLOCK) (rolled_back img jgen jslot s n)
  = ilayout v FEOX_DATA_START_BLOCK (its1 ++ IMark n :: its2).
Proof.
  intros Hlen Hok Himg s n. unfold rolled_back.
  rewrite (agree_on_skipn _ _ _ _ (journal_write_agree _ _ _ _ [] (N.le_0_l _))).
  2:{ intros k Hk. destruct (journal_slots_lie_between_the_metadata_copies _ (jnext_slot (mkjpos jgen jslot))) as (_ & A & B & _).
      cbv zeta in A. lia. }
  cbn [write_markers]. rewrite <- (firstn_skipn (N.to_nat FEOX_DATA_START_BLOCK) img) at 1. rewrite Himg.
  change (marker_run s n (N.to_nat n)) with (iblocks v s (IMark n)).
  rewrite ilayout_replace.
  - rewrite <- (firstn_length_le img Hlen) at 1. apply skipn_app_length.
  - rewrite firstn_length. lia.
  - exact Hok.
  - reflexivity.
  - cbn [iblocks]. rewrite marker_run_length, chunk_blocks_length. reflexivity.
Qed.

Lemma crashed_items_ok v its1 r its2 :
  Forall (item_ok v) (its1 ++ IRec r :: its2) -> Forall (item_ok v) (its1 ++ IMark (need_of v r) :: its2).
Proof.
  rewrite !Forall_app. intros [H1 H2]. split; [exact H1|].
  constructor; [exact (need_of_pos v r (Forall_inv H2))|exact (Forall_inv_tail H2)].
Qed.

(* The open of such a file is the replay followed by the open of the rolled-back file, which is a
   file at rest: its index, counters and free space are what [irun] and the release of the tail
   compute from the items, the journaled record having become a marker run. *)
Theorem open_of_a_crashed_batch c img m jgen jslot its1 r its2 :
  c_ro c = false -> c_now c = None ->
  (17 <= length img)%nat ->
  let total := N.of_nat (length img) in
  let mb := if select_meta (nth_block img 0) (nth_block img (N.to_nat FEOX_METADATA_BACKUP_BLOCK))
            then nth_block img (N.to_nat FEOX_METADATA_BACKUP_BLOCK) else nth_block img 0 in
  let v := m_version m in
  let s := FEOX_DATA_START_BLOCK + isum v its1 in
  let n := need_of v r in
  list_eqb (firstn 8 mb) SIGNATURE = true -> decode_meta mb = Some m -> has_token v = true ->
  decode_journal (slot_bytes img 0) (slot_bytes img 1) total = Some (jgen, jslot, [(s, n)]) ->
  jgen < U64MAX ->
  total * FEOX_BLOCK_SIZE < U64 ->
  Forall (item_ok v) (its1 ++ IRec r :: its2) -> distinct_keys (recs_of (its1 ++ its2)) ->
  skipn (N.to_nat FEOX_DATA_START_BLOCK) img = ilayout v FEOX_DATA_START_BLOCK (its1 ++ IRec r :: its2) ->
  let its' := its1 ++ IMark n :: its2 in
  let img' := rolled_back img jgen jslot s n in
  exists st' f,
    irun c v FEOX_DATA_START_BLOCK its'
         (mkrs [] (mkfs [] (total * FEOX_BLOCK_SIZE) 0 0) 0 0 0 [] FEOX_DATA_START_BLOCK 0) = Ok st' /\
    gap st' total = Ok (with_fs st' f) /\
    open_image c img =
    (Ok (mkopened v (rs_idx st') f (rs_count st') (rs_mem st') (rs_disk st') (rs_ambiguous st') img'
                  (jnext (mkjpos jgen jslot))), img') /\
    length img' = length img /\
    skipn (N.to_nat FEOX_DATA_START_BLOCK) img' = ilayout v FEOX_DATA_START_BLOCK its' /\
    (forall r', In r' (recs_of (its1 ++ its2)) -> exists s', idx_find (r_key r') (rs_idx st') = Some (entry_of v r' s')) /\
    rs_count st' = N.of_nat (length (recs_of (its1 ++ its2))) /\
    (forall b, FEOX_DATA_START_BLOCK <= b < total -> (free f b <-> ~ covered v FEOX_DATA_START_BLOCK its' b)).
Proof.
  intros Hrw Hnow Hlen total mb v s n Hsig Hdec Htok Hj Hg Hu Hok Hd Himg its' img1.
  pose proof (crashed_items_ok v its1 r its2 Hok) as Hok'.
  assert (Hrecs : recs_of its' = recs_of (its1 ++ its2)) by (unfold its'; rewrite !recs_of_app; reflexivity).
  (* the replayed file is a file at rest *)
  assert (L1 : length img1 = length img) by apply rolled_back_agree.
  assert (S1 : skipn (N.to_nat FEOX_DATA_START_BLOCK) img1 = ilayout v FEOX_DATA_START_BLOCK its').
  { apply rolled_back_layout; [unfold FEOX_DATA_START_BLOCK; lia|exact (proj1 (proj1 (Forall_app _ _ _) Hok))|exact Himg]. }
  destruct (file_at_rest_sizes v img1 its' Hok' S1) as [Htot Hfuel]; [lia|]. rewrite L1 in Htot. fold total in Htot.
  assert (Hpos : 0 < isum v its') by (unfold total, FEOX_DATA_START_BLOCK in Htot; lia).
  set (st0 := mkrs [] (mkfs [] (total * FEOX_BLOCK_SIZE) 0 0) 0 0 0 [] FEOX_DATA_START_BLOCK 0).
  destruct (scan_of_a_quiescent_data_area c v total [] img1 (or_introl Hrw) its' st0 (S (length img1)) (fun _ _ => Htok) Hfuel
              eq_refl eq_refl eq_refl Hu Hok' ltac:(rewrite Hrecs; exact Hd) S1 Htot Hpos)
    as (st' & f & Sc & R & G & _ & _ & Found & Cnt & Ret' & Part).
  rewrite Hrecs in Found, Cnt. exists st', f. split; [exact R|]. split; [exact G|]. split; [|repeat (split; [assumption|]); exact Part].
  apply (open_image_nothing_retired c img m jgen jslot [(s, n)] img1 (jnext (mkjpos jgen jslot)) st' (with_fs st' f)
           Hnow Hlen Hsig Hdec Hj); rewrite ?Hrw; auto.
  apply replay_single; [exact (Forall_elt _ _ _ Hok')|exact Hg].
Qed.

Theorem crashed_batch_is_rolled_back c img m jgen jslot its1 r its2 :
  c_ro c = false -> c_now c = None ->
  (17 <= length img)%nat ->
  let total := N.of_nat (length img) in
  let mb := if select_meta (nth_block img 0) (nth_block img (N.to_nat FEOX_METADATA_BACKUP_BLOCK))
            then nth_block img (N.to_nat FEOX_METADATA_BACKUP_BLOCK) else nth_block img 0 in
  let v := m_version m in
  let s := FEOX_DATA_START_BLOCK + isum v its1 in
  let n := need_of v r in
  list_eqb (firstn 8 mb) SIGNATURE = true -> decode_meta mb = Some m -> has_token v = true ->
  decode_journal (slot_bytes img 0) (slot_bytes img 1) total = Some (jgen, jslot, [(s, n)]) ->
  jgen < U64MAX ->
  total * FEOX_BLOCK_SIZE < U64 ->
  Forall (item_ok v) (its1 ++ IRec r :: its2) -> distinct_keys (recs_of (its1 ++ its2)) ->
  skipn (N.to_nat FEOX_DATA_START_BLOCK) img = ilayout v FEOX_DATA_START_BLOCK (its1 ++ IRec r :: its2) ->
  exists o img',
    open_image c img = (Ok o, img') /\
    length img' = length img /\
    skipn (N.to_nat FEOX_DATA_START_BLOCK) img' = ilayout v FEOX_DATA_START_BLOCK (its1 ++ IMark n :: its2) /\
    (forall r', In r' (recs_of (its1 ++ its2)) -> exists s', idx_find (r_key r') (o_idx o) = Some (entry_of v r' s')) /\
    o_count o = N.of_nat (length (recs_of (its1 ++ its2))) /\
    (forall b, FEOX_DATA_START_BLOCK <= b < total ->
               (free (o_fs o) b <-> ~ covered v FEOX_DATA_START_BLOCK (its1 ++ IMark n :: its2) b)) /\
    img' = rolled_back img jgen jslot s n.
Proof.
  intros Hrw Hnow Hlen total mb v s n Hsig Hdec Htok Hj Hg Hu Hok Hd Himg.
  destruct (open_of_a_crashed_batch c img m jgen jslot its1 r its2 Hrw Hnow Hlen Hsig Hdec Htok Hj Hg Hu Hok Hd Himg)
    as (st' & f & _ & _ & E & L & S1 & Found & Cnt & Part).
  eexists. eexists. split; [exact E|]. cbn [o_idx o_count o_fs]. auto 8.
Qed.

(* a CLEAR record of the next generation in one slot outvotes the record of the other slot *)
Lemma decode_journal_newer_clear old g e total rest :
  all_zero old = false -> decode_slot old total = Some (g, e) -> g + 1 < 2 ^ 64 ->
  let new := encode_journal (g + 1) JOURNAL_CLEAR [] ++ rest in
  decode_journal old new total = Some (g + 1, 1, []) /\ decode_journal new old total = Some (g + 1, 0, []).
Proof.
  intros Z D G new. unfold decode_journal, new.
  rewrite Z, D, encode_journal_not_zero, clear_journal_slot_roundtrip by lia.
  split; [destruct (N.ltb_spec (g + 1) g)|destruct (N.ltb_spec g (g + 1))]; (reflexivity || lia).
Qed.

Lemma slot_bytes_agree K (a b : image) k :
  agree_on K a b ->
  (forall i, (N.to_nat (ALLOCATION_JOURNAL_START_BLOCK + k * ALLOCATION_JOURNAL_SLOT_BLOCKS) <= i <
              N.to_nat (ALLOCATION_JOURNAL_START_BLOCK + k * ALLOCATION_JOURNAL_SLOT_BLOCKS) +
              N.to_nat ALLOCATION_JOURNAL_SLOT_BLOCKS)%nat -> K i) ->
  slot_bytes b k = slot_bytes a k.
Proof. intros Hab HK. unfold slot_bytes. f_equal. exact (agree_on_window _ _ _ _ _ Hab HK). Qed.

Lemma clear_image_is_one_block g : length (encode_journal g JOURNAL_CLEAR []) = BLOCK.
Proof. rewrite encode_journal_length. vm_compute. reflexivity. Qed.

Lemma slot_bytes_written (img : image) w g :
  w < ALLOCATION_JOURNAL_SLOTS -> (N.to_nat FEOX_METADATA_BACKUP_BLOCK <= length img)%nat ->
  exists rest, slot_bytes (write_journal img w g JOURNAL_CLEAR []) w = encode_journal g JOURNAL_CLEAR [] ++ rest.
Proof.
  intros Hw Hl. unfold write_journal, slot_bytes.
  set (j := encode_journal g JOURNAL_CLEAR []).
  pose proof (clear_image_is_one_block g) as Lj. fold j in Lj.
  rewrite Lj, Nat.div_same by discriminate. cbn [chunk_blocks]. rewrite (firstn_all2 j) by lia.
  destruct (journal_slots_lie_between_the_metadata_copies w Hw) as (_ & E & _). cbv zeta in E.
  unfold ALLOCATION_JOURNAL_SLOT_BLOCKS in *. rewrite skipn_set_blocks by (cbn [length]; lia).
  eexists. reflexivity.
Qed.

Lemma rolled_back_slots img jgen o s n :
  (N.to_nat FEOX_METADATA_BACKUP_BLOCK <= length img)%nat -> FEOX_DATA_START_BLOCK <= s ->
  let w := j_slot (jnext (mkjpos jgen o)) in
  let img' := rolled_back img jgen o s n in
  o < ALLOCATION_JOURNAL_SLOTS -> o <> w ->
  slot_bytes img' o = slot_bytes img o /\
  exists rest, slot_bytes img' w = encode_journal (jgen + 1) JOURNAL_CLEAR [] ++ rest.
Proof.
  intros Hl Hs w img' Ho Hw. split.
  - apply (slot_bytes_agree _ _ _ _ (rolled_back_agree img jgen o s n)). intros i Hi. fold w.
    destruct (journal_slots_lie_between_the_metadata_copies o Ho) as (_ & A & B & _). cbv zeta in A.
    unfold ALLOCATION_JOURNAL_SLOT_BLOCKS in *. lia.
  - apply slot_bytes_written; [apply jnext_slot|]. rewrite write_markers_length. exact Hl.
Qed.

Lemma rolled_back_journal img jgen jslot s n total e :
  (N.to_nat FEOX_METADATA_BACKUP_BLOCK <= length img)%nat -> FEOX_DATA_START_BLOCK <= s ->
  jgen < U64MAX -> e <> [] ->
  decode_journal (slot_bytes img 0) (slot_bytes img 1) total = Some (jgen, jslot, e) ->
  let img' := rolled_back img jgen jslot s n in
  decode_journal (slot_bytes img' 0) (slot_bytes img' 1) total = Some (jgen + 1, j_slot (jnext (mkjpos jgen jslot)), []).
Proof.
  intros Hl Hs Hg Hne Hj img'.
  assert (G : jgen + 1 < 2 ^ 64) by (unfold U64MAX in Hg; lia).
  destruct (decode_journal_cases _ _ _ _ _ _ Hj) as [E|[(-> & Z & D)|(-> & Z & D)]]; [contradiction| |].
  - destruct (rolled_back_slots img jgen 0 s n Hl Hs) as [U (rest & W)]; [reflexivity|vm_compute; discriminate|].
    fold img' in U, W. change (j_slot (jnext (mkjpos jgen 0))) with 1 in *. rewrite U, W.
    exact (proj1 (decode_journal_newer_clear _ _ _ _ _ Z D G)).
  - destruct (rolled_back_slots img jgen 1 s n Hl Hs) as [U (rest & W)]; [reflexivity|vm_compute; discriminate|].
    fold img' in U, W. change (j_slot (jnext (mkjpos jgen 1))) with 0 in *. rewrite U, W.
    exact (proj2 (decode_journal_newer_clear _ _ _ _ _ Z D G)).
Qed.

(* C04 for this class of crash images: what the first open leaves behind is a file at rest, so
   opening it again -- any number of times -- changes nothing and gives the same answer *)
Theorem recovery_from_a_crashed_batch_is_idempotent c img m jgen jslot its1 r its2 k :
  c_ro c = false -> c_now c = None ->
  (17 <= length img)%nat ->
  let total := N.of_nat (length img) in
  let mb := if select_meta (nth_block img 0) (nth_block img (N.to_nat FEOX_METADATA_BACKUP_BLOCK))
            then nth_block img (N.to_nat FEOX_METADATA_BACKUP_BLOCK) else nth_block img 0 in
  let v := m_version m in
  let s := FEOX_DATA_START_BLOCK + isum v its1 in
  let n := need_of v r in
  list_eqb (firstn 8 mb) SIGNATURE = true -> decode_meta mb = Some m -> has_token v = true ->
  decode_journal (slot_bytes img 0) (slot_bytes img 1) total = Some (jgen, jslot, [(s, n)]) ->
  jgen < U64MAX ->
  total * FEOX_BLOCK_SIZE < U64 ->
  Forall (item_ok v) (its1 ++ IRec r :: its2) -> distinct_keys (recs_of (its1 ++ its2)) ->
  skipn (N.to_nat FEOX_DATA_START_BLOCK) img = ilayout v FEOX_DATA_START_BLOCK (its1 ++ IRec r :: its2) ->
  let img' := snd (open_image c img) in
  reopen c k img' = open_image c img' /\ snd (open_image c img') = img'.
Proof.
  intros Hrw Hnow Hlen total mb v s n Hsig Hdec Htok Hj Hg Hu Hok Hd Himg img'.
  destruct (open_of_a_crashed_batch c img m jgen jslot its1 r its2 Hrw Hnow Hlen Hsig Hdec Htok Hj Hg Hu Hok Hd Himg)
    as (st' & f & _ & _ & E & Len & Lay & _).
  fold total mb v s n in E, Len, Lay. unfold img'. rewrite E. cbn [snd]. clear img' E.
  set (im := rolled_back img jgen jslot s n) in *.
  assert (Hlb : (N.to_nat FEOX_METADATA_BACKUP_BLOCK <= length img)%nat) by (unfold FEOX_METADATA_BACKUP_BLOCK; lia).
  assert (Hs : FEOX_DATA_START_BLOCK <= s) by (unfold s; lia).
  (* the metadata copies are where they were *)
  destruct (journal_slots_lie_between_the_metadata_copies _ (jnext_slot (mkjpos jgen jslot))) as (Lo & Hi & Bk & _). cbv zeta in Lo, Hi.
  assert (M0 : nth_block im 0 = nth_block img 0).
  { apply (rolled_back_agree img jgen jslot s n). unfold FEOX_METADATA_BLOCK in Lo. split; lia. }
  assert (M1 : nth_block im (N.to_nat FEOX_METADATA_BACKUP_BLOCK) = nth_block img (N.to_nat FEOX_METADATA_BACKUP_BLOCK)).
  { apply (rolled_back_agree img jgen jslot s n). split; lia. }
  (* its journal is clear *)
  pose proof (rolled_back_journal img jgen jslot s n total [(s, n)] Hlb Hs Hg ltac:(discriminate) Hj) as J. cbv zeta in J. fold im in J.
  (* its item list is the batch with a marker run where the record was *)
  pose proof (crashed_items_ok v its1 r its2 Hok) as Hok'.
  apply (reopening_a_quiescent_file_changes_nothing c im m (jgen + 1) (j_slot (jnext (mkjpos jgen jslot))) (its1 ++ IMark n :: its2) k Hrw Hnow);
    rewrite ?Len, ?M0, ?M1; auto.
  rewrite !recs_of_app in *. exact Hd.
Qed.

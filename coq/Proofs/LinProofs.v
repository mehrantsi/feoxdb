(* Soundness of the history checker: when lin_check accepts, there is a witness -- an order of
   all calls of the history that respects real time, in which every call either behaves exactly
   as the sequential last-writer-wins spec says (with the response it really gave) or is one of
   the two permitted refusals, justified by a concurrent accepted modification. *)
From Coq Require Import List NArith Bool Permutation.
From Feox Require Import Model.Sched Model.Lin.
Import ListNotations.
Local Open Scope N_scope.

Inductive item := Lin (x : hop) | Drop (x : hop).
Definition item_hop (i : item) : hop := match i with Lin x | Drop x => x end.

Fixpoint replay (all : list hop) (m : kmap) (w : list item) : Prop :=
  match w with
  | [] => True
  | Lin x :: t => let '(m', r) := apply_hop m x in resp_eqb r (h_resp x) = true /\ replay all m' t
  | Drop x :: t => justified all x = true /\ replay all m t
  end.

(* the order respects real time: nobody placed later answered before this call was invoked *)
Fixpoint rt_ok (w : list item) : Prop :=
  match w with
  | [] => True
  | a :: t => Forall (fun b => (h_res (item_hop b) <? h_inv (item_hop a)) = false) t /\ rt_ok t
  end.

Lemma ids_unique_NoDup h : ids_unique h = true -> NoDup (map h_id h).
Proof.
  induction h as [|x t IH]; cbn; intros H; [constructor|].
  apply andb_true_iff in H. destruct H as [Hx Ht]. constructor; [|exact (IH Ht)].
  intros Hin. apply in_map_iff in Hin. destruct Hin as (y & Hy & Hin).
  apply negb_true_iff in Hx. rewrite <- not_true_iff_false in Hx. apply Hx.
  apply existsb_exists. exists y. split; [exact Hin | apply N.eqb_eq; exact Hy].
Qed.

Lemma without_notin x l : ~ In (h_id x) (map h_id l) -> without x l = l.
Proof.
  unfold without. induction l as [|z t IH]; cbn; intros Hn; [reflexivity|].
  destruct (N.eqb_spec (h_id z) (h_id x)) as [E|_]; [tauto|].
  cbn. f_equal. apply IH. tauto.
Qed.

Lemma without_perm pend x :
  NoDup (map h_id pend) -> In x pend -> Permutation (x :: without x pend) pend /\ NoDup (map h_id (without x pend)).
Proof.
  induction pend as [|y t IH]; cbn; intros Hnd Hin; [contradiction|].
  inversion Hnd as [|? ? Hny Hndt]; subst.
  destruct Hin as [->|Hin].
  - rewrite N.eqb_refl. cbn. fold (without x t). rewrite (without_notin _ _ Hny).
    split; [apply Permutation_refl | exact Hndt].
  - destruct (N.eqb_spec (h_id y) (h_id x)) as [E|_].
    + destruct Hny. rewrite E. apply in_map. exact Hin.
    + cbn. fold (without x t). destruct (IH Hndt Hin) as [Hp Hn]. split.
      * rewrite perm_swap. apply perm_skip. exact Hp.
      * constructor; [|exact Hn]. intros H. apply Hny.
        apply in_map_iff in H. destruct H as (z & Hz & Hzin). apply filter_In in Hzin.
        apply in_map_iff. exists z. tauto.
Qed.

Lemma minimal_forall x pend (w : list item) :
  minimal x pend = true -> Permutation (map item_hop w) (without x pend) ->
  Forall (fun b => (h_res (item_hop b) <? h_inv x) = false) w.
Proof.
  intros Hmin Hp. apply Forall_forall. intros b Hb.
  assert (Hin : In (item_hop b) (without x pend)).
  { eapply Permutation_in; [exact Hp|]. apply in_map. exact Hb. }
  apply filter_In in Hin. destruct Hin as [Hin Hne].
  unfold minimal in Hmin. rewrite forallb_forall in Hmin. specialize (Hmin _ Hin).
  apply negb_true_iff in Hne. rewrite Hne in Hmin. apply negb_true_iff in Hmin. exact Hmin.
Qed.

Theorem search_sound all : forall fuel pend m,
  NoDup (map h_id pend) -> search fuel all pend m = true ->
  exists w, Permutation (map item_hop w) pend /\ rt_ok w /\ replay all m w.
Proof.
  induction fuel as [|f IH]; intros pend m Hnd Hs; cbn in Hs; [discriminate|].
  destruct pend as [|p0 pt] eqn:Hpend.
  - exists []. cbn. split; [apply perm_nil | split; exact I].
  - rewrite <- Hpend in *. clear Hpend.
    apply existsb_exists in Hs. destruct Hs as [x [Hin Hx]].
    destruct (without_perm _ _ Hnd Hin) as [Hperm Hnd'].
    rewrite andb_true_iff, orb_true_iff in Hx. destruct Hx as [Hmin [Ha|Hb]].
    + destruct (apply_hop m x) as [m' r] eqn:Hap.
      apply andb_true_iff in Ha. destruct Ha as [Hr Hrest].
      destruct (IH _ _ Hnd' Hrest) as [w [Hpw [Hrt Hrep]]].
      exists (Lin x :: w). cbn. rewrite Hap.
      repeat split; trivial; [exact (perm_trans (perm_skip x Hpw) Hperm) | exact (minimal_forall _ _ _ Hmin Hpw)].
    + apply andb_true_iff in Hb. destruct Hb as [Hj Hrest].
      destruct (IH _ _ Hnd' Hrest) as [w [Hpw [Hrt Hrep]]].
      exists (Drop x :: w). cbn.
      repeat split; trivial; [exact (perm_trans (perm_skip x Hpw) Hperm) | exact (minimal_forall _ _ _ Hmin Hpw)].
Qed.

Theorem lin_check_sound h :
  lin_check h = true ->
  exists w, Permutation (map item_hop w) h /\ rt_ok w /\ replay h [] w.
Proof.
  unfold lin_check. intros H. apply andb_true_iff in H. destruct H as [H Hs].
  apply andb_true_iff in H. destruct H as [Hu _].
  exact (search_sound h _ _ _ (ids_unique_NoDup _ Hu) Hs).
Qed.

(* a dropped call is a refusal: it claimed no effect *)
Theorem dropped_is_refusal all x :
  justified all x = true ->
  h_resp x = ROlder \/ (h_resp x = RBool false /\ exists k e n t, h_op x = OCas k e n t).
Proof.
  unfold justified. destruct (h_resp x) as [| | |b| | | |]; try discriminate.
  - intros _. left. reflexivity.
  - destruct b; [destruct (h_op x); discriminate|].
    destruct (h_op x) eqn:E; try discriminate. intros _. right. split; [reflexivity|]. eauto.
Qed.

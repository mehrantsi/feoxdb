(* Equality and the lexicographic order on byte strings (Model/Bytes.v): keys of the reference
   map, of the recovery index and of the cache are compared with these. *)
From Coq Require Import List NArith Bool Lia.
From Feox Require Import Model.Bytes.
Import ListNotations.
Local Open Scope N_scope.

Lemma list_eqb_refl l : list_eqb l l = true.
Proof. induction l as [|x l IH]; cbn; [reflexivity|]. rewrite N.eqb_refl. exact IH. Qed.

Lemma list_eqb_eq a : forall b, list_eqb a b = true <-> a = b.
Proof.
  induction a as [|x a IH]; intros [|y b]; cbn; split; try discriminate; try reflexivity.
  - rewrite andb_true_iff, N.eqb_eq, IH. intros [-> ->]. reflexivity.
  - intros [= -> ->]. rewrite N.eqb_refl. apply IH. reflexivity.
Qed.

Lemma list_eqb_neq a b : list_eqb a b = false <-> a <> b.
Proof. rewrite <- list_eqb_eq. destruct (list_eqb a b); split; congruence. Qed.

Lemma list_eqb_sym a b : list_eqb a b = list_eqb b a.
Proof.
  destruct (list_eqb b a) eqn:E.
  - apply list_eqb_eq in E. subst. apply list_eqb_refl.
  - apply list_eqb_neq. apply list_eqb_neq in E. congruence.
Qed.

Lemma key_ltb_irrefl a : key_ltb a a = false.
Proof. induction a as [|x a IH]; cbn; [reflexivity|]. rewrite N.ltb_irrefl, N.eqb_refl, IH. reflexivity. Qed.

Lemma key_ltb_trans a : forall b c, key_ltb a b = true -> key_ltb b c = true -> key_ltb a c = true.
Proof.
  induction a as [|x a IH]; intros [|y b] [|z c]; cbn; try discriminate; try reflexivity.
  rewrite !orb_true_iff, !andb_true_iff, !N.ltb_lt, !N.eqb_eq.
  intros [H1|[H1 H1']] [H2|[H2 H2']]; [left; lia ..|]. right. split; [lia|]. exact (IH _ _ H1' H2').
Qed.

Lemma key_ltb_asym a b : key_ltb a b = true -> key_ltb b a = false.
Proof.
  intros H. destruct (key_ltb b a) eqn:E; [|reflexivity].
  pose proof (key_ltb_trans _ _ _ H E) as C. rewrite key_ltb_irrefl in C. discriminate.
Qed.

Lemma key_trichotomy a : forall b, key_ltb a b = true \/ a = b \/ key_ltb b a = true.
Proof.
  induction a as [|x a IH]; intros [|y b]; cbn; auto.
  destruct (N.lt_trichotomy x y) as [L|[E|L]].
  - apply N.ltb_lt in L as ->. auto.
  - subst. rewrite N.ltb_irrefl, N.eqb_refl. cbn. destruct (IH b) as [H|[->|H]]; auto.
  - apply N.ltb_lt in L as ->. auto.
Qed.

Lemma key_ltb_neq a b : key_ltb a b = true -> list_eqb a b = false.
Proof. intros H. apply list_eqb_neq. intros ->. rewrite key_ltb_irrefl in H. discriminate. Qed.

(* the form the ordered-index proofs use: neither smaller nor equal means greater *)
Lemma key_ltb_total a b : key_ltb a b = false -> list_eqb a b = false -> key_ltb b a = true.
Proof.
  intros L E. apply list_eqb_neq in E. destruct (key_trichotomy a b) as [H|[H|H]]; [congruence|contradiction|exact H].
Qed.

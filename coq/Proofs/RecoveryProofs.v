(* Model/Recovery.v on arbitrary images.  Every stage of an open (journal replay, scan, removal of
   expired winners, retirement, final release) is described by what it can return: never `Panic`
   when there is enough fuel, rejections other than the two early ones, and a state whose index and
   retirement queue moved in one of a few ways.  The theorems of C17 and the containment results of
   the files built on this one are read off `open_image_outcome`. *)
From Coq Require Import List NArith Bool Lia Arith.
From Feox Require Import Gen.Constants Model.Bytes Model.Codec Model.MetaJournal Model.FreeSpace Model.Recovery
                         Proofs.ListFacts Proofs.CodecProofs.
Import ListNotations.
Local Open Scope N_scope.

Definition agree_on (K : nat -> Prop) (a b : image) : Prop :=
  length b = length a /\ forall k, K k -> nth k b [] = nth k a [].

Lemma agree_on_refl K a : agree_on K a a.
Proof. split; reflexivity. Qed.

Lemma agree_on_trans K a b c : agree_on K a b -> agree_on K b c -> agree_on K a c.
Proof. intros [L1 H1] [L2 H2]. split; [congruence|]. intros k Hk. rewrite H2; auto. Qed.

Lemma agree_on_weaken (K K' : nat -> Prop) a b : (forall k, K' k -> K k) -> agree_on K a b -> agree_on K' a b.
Proof. intros HK [L H]. split; auto. Qed.

Lemma agree_on_window K a b i n :
  agree_on K a b -> (forall k, (i <= k < i + n)%nat -> K k) -> firstn n (skipn i b) = firstn n (skipn i a).
Proof.
  intros [L H] HK. apply (nth_ext _ _ [] []).
  - rewrite !firstn_length, !skipn_length, L. reflexivity.
  - intros j Hj. rewrite firstn_length in Hj. rewrite !nth_firstn, !nth_skipn by lia. apply H, HK. lia.
Qed.

Lemma agree_on_skipn K a b i : agree_on K a b -> (forall k, (i <= k)%nat -> K k) -> skipn i b = skipn i a.
Proof.
  intros Hab HK. rewrite <- (firstn_all (skipn i b)), <- (firstn_all (skipn i a)), !skipn_length, (proj1 Hab).
  apply (agree_on_window K); [exact Hab|]. intros k Hk. apply HK. lia.
Qed.

Lemma set_blocks_length img s bs : length (set_blocks img s bs) = length img.
Proof. unfold set_blocks. rewrite !app_length, !firstn_length, skipn_length. lia. Qed.

Lemma set_blocks_agree img s bs :
  agree_on (fun k => (k < N.to_nat s \/ N.to_nat s + length bs <= k)%nat) img (set_blocks img s bs).
Proof.
  split; [apply set_blocks_length|]. intros k Hk.
  destruct (Nat.le_gt_cases (length img) k) as [Big|Small].
  { rewrite (nth_overflow img) by exact Big. apply nth_overflow. rewrite set_blocks_length. exact Big. }
  unfold set_blocks. set (i := N.to_nat s) in *. destruct Hk as [Hk|Hk].
  - rewrite app_nth1 by (rewrite firstn_length; lia). apply nth_firstn. exact Hk.
  - rewrite (firstn_all2 bs) by lia.
    rewrite app_nth2 by (rewrite firstn_length; lia). rewrite firstn_length, Nat.min_l by lia.
    rewrite app_nth2 by lia. rewrite nth_skipn. f_equal. lia.
Qed.

Lemma chunk_blocks_length d k : length (chunk_blocks d k) = k.
Proof. revert d. induction k as [|k IH]; intros d; cbn [chunk_blocks length]; [reflexivity|]. rewrite IH. reflexivity. Qed.

Lemma marker_run_length sector remaining k : length (marker_run sector remaining k) = k.
Proof. revert sector remaining. induction k as [|k IH]; intros; cbn [marker_run length]; [reflexivity|]. rewrite IH. reflexivity. Qed.

Lemma write_markers_length exts : forall img, length (write_markers img exts) = length img.
Proof. induction exts as [|[s n] t IH]; intros img; cbn [write_markers]; [reflexivity|]. rewrite IH. apply set_blocks_length. Qed.

Lemma write_journal_length img slot g st exts : length (write_journal img slot g st exts) = length img.
Proof. apply set_blocks_length. Qed.

Lemma replay_length img p exts :
  match replay img p exts with
  | ReplayOk img1 _ | ReplayExhausted img1 => length img1 = length img
  | ReplayCoalesce => True
  end.
Proof.
  unfold replay. destruct exts; [reflexivity|]. destruct (coalesce _); [|exact I].
  destruct (negb _); [|rewrite write_journal_length]; apply write_markers_length.
Qed.

Lemma idx_find_In k l e : idx_find k l = Some e -> In e l /\ list_eqb (e_key e) k = true.
Proof.
  induction l as [|x t IH]; cbn [idx_find]; [discriminate|]. destruct (list_eqb (e_key x) k) eqn:E.
  - intros [= <-]. auto using in_eq.
  - intros H. destruct (IH H). auto using in_cons.
Qed.

Lemma Forall_idx_find (P : entry -> Prop) k l e : Forall P l -> idx_find k l = Some e -> P e.
Proof. intros HP F. exact (proj1 (Forall_forall P l) HP e (proj1 (idx_find_In k l e F))). Qed.

Lemma Forall_idx_upsert (P : entry -> Prop) x l : P x -> Forall P l -> Forall P (idx_upsert x l).
Proof.
  intros Hx. induction 1 as [|y t Hy Ht IH]; cbn [idx_upsert]; [repeat constructor; exact Hx|].
  destruct (list_eqb (e_key y) (e_key x)); [constructor; assumption|].
  destruct (key_ltb (e_key x) (e_key y)); repeat constructor; assumption.
Qed.

Lemma Forall_idx_remove (P : entry -> Prop) k l : Forall P l -> Forall P (idx_remove k l).
Proof.
  induction 1 as [|y t Hy Ht IH]; cbn [idx_remove]; [constructor|].
  destruct (list_eqb (e_key y) k); [exact Ht|constructor; assumption].
Qed.

Lemma parse_head_total version data : parse_head version data <> None.
Proof.
  unfold parse_head. cbv zeta.
  destruct (Nat.ltb_spec (length data) 6); [discriminate|].
  destruct (Nat.ltb_spec (length data) (6 + N.to_nat (u16_at data 4) + (if has_expiry version then 24 else 16)));
    [discriminate|].
  rewrite !sub_opt_ok by (destruct (has_expiry version); lia).
  destruct (has_expiry version); [rewrite sub_opt_ok by lia|]; discriminate.
Qed.

(* The two rejections that an open makes before it has written anything are InvalidDevice and
   InvalidMetadata; every later stage rejects with something else. *)
Definition late (e : rerr) : Prop :=
  match e with EInvalidMetadata | EInvalidDevice => False | _ => True end.

(* What a stage may return: a value satisfying Q, a late rejection, or Panic, the last only under
   the excuse X (too little fuel, no block left to read; False for a stage that has none). *)
Definition outcome {A} (Q : A -> Prop) (X : Prop) (r : res A) : Prop :=
  match r with Ok a => Q a | Rej e => late e | Panic => X end.

Lemma outcome_bind {A B} (Q : A -> Prop) (R : B -> Prop) X r (k : A -> res B) :
  outcome Q X r -> (forall a, Q a -> outcome R X (k a)) -> outcome R X (bind r k).
Proof. destruct r; cbn [outcome bind]; auto. Qed.

Lemma outcome_excuse {A} (Q : A -> Prop) (X Y : Prop) r : (X -> Y) -> outcome Q X r -> outcome Q Y r.
Proof. destruct r; cbn [outcome]; auto. Qed.

(* a release only changes the free-space manager *)
Definition keeps (st st' : rstate) : Prop := rs_idx st' = rs_idx st /\ rs_retired st' = rs_retired st.

Lemma fs_release_outcome st a n X : outcome (keeps st) X (fs_release st a n).
Proof. unfold fs_release. destruct (release a n (rs_fs st)) as [[x|e] f]; [split; reflexivity|exact I]. Qed.

(* The release in front of a record, and behind the last one: everything between the end of the last
   record and `sector` is free.  scan_step and open_image spell it out where they use it. *)
Definition gap (st : rstate) (sector : N) : res rstate :=
  if rs_last_end st <? sector then fs_release st (rs_last_end st) (sector - rs_last_end st) else Ok st.

Lemma gap_outcome st s X : outcome (keeps st) X (gap st s).
Proof. unfold gap. destruct (_ <? _); [apply fs_release_outcome|split; reflexivity]. Qed.

Lemma push_retired_idx c st x : rs_idx (push_retired c st x) = rs_idx st.
Proof. unfold push_retired. destruct (c_ro c); reflexivity. Qed.

Lemma push_retired_retired c st x :
  rs_retired (push_retired c st x) = if c_ro c then rs_retired st else x :: rs_retired st.
Proof. unfold push_retired. destruct (c_ro c); reflexivity. Qed.

(* What a step at [sector] does to the index and to the retirement queue: at most one upsert of an
   entry placed at [sector], and at most one push_retired of an extent that starts at [sector] or
   where an indexed entry starts. *)
Definition step_rel (c : rcfg) (sector : N) (st st' : rstate) : Prop :=
  (rs_idx st' = rs_idx st \/ exists e, e_sector e = sector /\ rs_idx st' = idx_upsert e (rs_idx st)) /\
  (rs_retired st' = rs_retired st \/
   exists s n, (s = sector \/ exists k ex, idx_find k (rs_idx st) = Some ex /\ e_sector ex = s) /\
               rs_retired st' = rs_retired (push_retired c st (s, n))).

Definition advances (c : rcfg) (sector : N) (st : rstate) (r : step_result) : Prop :=
  match r with Advance next st' _ => sector < next /\ step_rel c sector st st' end.

Lemma step_rel_same c sector st st' :
  rs_idx st' = rs_idx st -> rs_retired st' = rs_retired st -> step_rel c sector st st'.
Proof. intros I R. split; auto. Qed.

Lemma step_rel_push c sector st n : step_rel c sector st (push_retired c st (sector, n)).
Proof. split; [left; apply push_retired_idx|]. right. exists sector, n. split; [left|]; reflexivity. Qed.

Local Hint Resolve step_rel_same : core.

Lemma ro_skip_spec jl : forall sector nxt jl', ro_skip jl sector = (Some nxt, jl') -> sector < nxt.
Proof.
  induction jl as [|[s n] t IH]; intros sector nxt jl'; cbn [ro_skip]; [discriminate|].
  destruct (N.ltb_spec sector s); [discriminate|].
  destruct (N.ltb_spec sector (s + n)); [intros [= <- <-]; assumption|apply IH].
Qed.

Lemma legacy_skip_outcome c version sector st jl X :
  outcome (advances c sector st) X (legacy_skip version sector st jl).
Proof.
  unfold legacy_skip. destruct (has_token version); [exact I|].
  split; [lia|auto].
Qed.

Lemma scan_step_outcome c version total sector rest st jl :
  outcome (advances c sector st) (rest = []) (scan_step c version total sector rest st jl).
Proof.
  unfold scan_step.
  destruct (if c_ro c then ro_skip jl sector else (None, jl)) as [[nxt|] jl1] eqn:J.
  { split; [|auto]. destruct (c_ro c); [exact (ro_skip_spec _ _ _ _ J)|discriminate]. }
  destruct rest as [|data tails]; [reflexivity|].
  destruct (list_eqb (firstn 8 data) DELETED_TAG).
  { (* a retirement marker *)
    destruct (negb (has_token version) && all_zero (skipn 8 data)).
    { destruct (negb (c_allow_ambiguous c)); [exact I|]. split; [lia|auto]. }
    destruct (negb (marker_token sector data =? u16_at data 16)); [exact I|]. cbv zeta.
    destruct (U64MAX <? sector + u64_at data 8); [exact I|].
    destruct (N.eqb_spec (u64_at data 8) 0); [exact I|]. cbn [orb].
    destruct (total <? sector + u64_at data 8); [exact I|].
    split; [lia|]. destruct (if negb _ then true else _); [apply step_rel_push|auto]. }
  destruct (negb (u16_at data 0 =? SECTOR_MARKER)); [split; [lia|auto]|].
  destruct (negb (header_range_ok version data)); [apply legacy_skip_outcome|]. cbv zeta.
  destruct (_ || _); [exact I|].
  pose proof (parse_head_total version data) as PH.
  destruct (parse_head version data) as [[[[[key vlen] ts] exp]|]|]; [|apply legacy_skip_outcome|contradiction].
  destruct (_ || _ || _); [apply legacy_skip_outcome|].
  set (need := extent_blocks version (N.of_nat (length key)) vlen).
  destruct (N.eqb_spec need 0); [apply legacy_skip_outcome|]. cbn [orb].
  destruct (total <? sector + need); [apply legacy_skip_outcome|].
  destruct (match jl1 with [] => false | _ => _ end); [exact I|].
  destruct (negb _); [exact I|].
  destruct (idx_find key (rs_idx st)) as [ex|] eqn:F.
  - destruct (ts <? e_ts ex); [split; [lia|apply step_rel_push]|].
    (* release the old extent, queue it, release the gap, index the record *)
    apply (outcome_bind (keeps st)); [apply fs_release_outcome|]. intros st1 [I1 R1].
    eapply outcome_bind; [apply gap_outcome|]. intros st4 [I4 R4].
    split; [lia|]. split; cbn [rs_idx rs_retired]; right.
    + eexists. split; [|rewrite I4, push_retired_idx; cbn [rs_idx]; rewrite I1; reflexivity]. reflexivity.
    + eexists _, _. split; [right; exists key, ex; split; [exact F|reflexivity]|].
      rewrite R4, !push_retired_retired. cbn [rs_retired]. rewrite R1. reflexivity.
  - eapply outcome_bind; [apply gap_outcome|]. intros st4 [I4 R4].
    split; [lia|]. split; cbn [rs_idx rs_retired]; [right|left; exact R4].
    eexists. split; [|rewrite I4; reflexivity]. reflexivity.
Qed.

Lemma scan_outcome c version total img (I : rstate -> Prop) s0 :
  (forall s st st', s0 <= s -> I st -> step_rel c s st st' -> I st') ->
  forall fuel sector st jl, s0 <= sector -> I st ->
  outcome I ((fuel <= N.to_nat (total - sector))%nat \/ (length img < N.to_nat total)%nat)
          (scan fuel c version total img sector st jl).
Proof.
  intros HI. induction fuel as [|f IH]; intros sector st jl Hs Hst; cbn [scan];
    destruct (N.leb_spec total sector) as [|Hlt]; try exact Hst.
  { left. lia. }
  pose proof (scan_step_outcome c version total sector (skipn (N.to_nat sector) img) st jl) as G.
  destruct (scan_step _ _ _ _ _ _ _) as [[next st1 jl1]| |]; cbn [bind outcome advances] in G |- *.
  - destruct G as [Hn R]. destruct (N.leb_spec next sector); [lia|].
    apply (outcome_excuse _ ((f <= N.to_nat (total - next))%nat \/ (length img < N.to_nat total)%nat)); [lia|].
    apply IH; [lia|exact (HI _ _ _ Hs Hst R)].
  - exact G.
  - right. apply (f_equal (@length _)) in G. rewrite skipn_length in G. cbn [length] in G. lia.
Qed.

Lemma expire_winners_outcome c version now (I : rstate -> Prop) (P : entry -> Prop) :
  (forall e st st', P e -> I st -> rs_idx st' = idx_remove (e_key e) (rs_idx st) ->
     (exists n, rs_retired st' = rs_retired (push_retired c st (e_sector e, n))) -> I st') ->
  forall todo, Forall P todo -> forall st, I st -> outcome I False (expire_winners c version now todo st).
Proof.
  intros HI. induction 1 as [|e t He _ IH]; intros st Hst; cbn [expire_winners]; [exact Hst|].
  destruct (_ && _); [|apply IH; exact Hst]. cbv zeta.
  apply (outcome_bind (keeps st)); [apply fs_release_outcome|]. intros st1 [I1 R1].
  apply IH. apply (HI e st _ He Hst).
  - rewrite push_retired_idx. cbn [rs_idx]. rewrite I1. reflexivity.
  - eexists. rewrite !push_retired_retired. cbn [rs_retired]. rewrite R1. reflexivity.
Qed.

Definition in_data (l : list (N * N)) : Prop := Forall (fun x => FEOX_DATA_START_BLOCK <= fst x) l.

(* everything the scan indexes or queues lies in the data area *)
Definition state_in_data (st : rstate) : Prop :=
  in_data (rs_retired st) /\ Forall (fun e => FEOX_DATA_START_BLOCK <= e_sector e) (rs_idx st).

Lemma push_retired_in_data c st x :
  FEOX_DATA_START_BLOCK <= fst x -> in_data (rs_retired st) -> in_data (rs_retired (push_retired c st x)).
Proof. intros Hx R. rewrite push_retired_retired. destruct (c_ro c); [exact R|constructor; assumption]. Qed.

Lemma step_rel_in_data c s st st' :
  FEOX_DATA_START_BLOCK <= s -> state_in_data st -> step_rel c s st st' -> state_in_data st'.
Proof.
  intros Hs [R I] [EI ER]. split.
  - destruct ER as [->|(s' & n & Hs' & ->)]; [exact R|]. apply push_retired_in_data; [|exact R].
    destruct Hs' as [->|(k & ex & F & <-)]; [exact Hs|exact (Forall_idx_find _ _ _ _ I F)].
  - destruct EI as [->|(e & <- & ->)]; [exact I|]. apply Forall_idx_upsert; assumption.
Qed.

Definition replayed (r : replay_result) (img1 : image) : Prop :=
  match r with ReplayOk i _ | ReplayExhausted i => i = img1 | ReplayCoalesce => False end.

(* The file an open can leave in place of [img]: [img] itself, or -- never when read-only -- the
   replay of the journal it decoded, possibly followed by the two retirements of recovery over
   extents of the data area. *)
Definition recovered (c : rcfg) (img img' : image) : Prop :=
  img' = img \/
  c_ro c = false /\
  exists g s je img1,
    decode_journal (slot_bytes img 0) (slot_bytes img 1) (N.of_nat (length img)) = Some (g, s, je) /\
    replayed (replay img (mkjpos g s) je) img1 /\
    (img' = img1 \/ exists p all nl, in_data all /\ img' = fst (fst (retire_two img1 p all nl))).

Lemma replay_recovered c img g s je img1 :
  decode_journal (slot_bytes img 0) (slot_bytes img 1) (N.of_nat (length img)) = Some (g, s, je) ->
  replayed (if c_ro c then ReplayOk img (mkjpos g s) else replay img (mkjpos g s) je) img1 ->
  length img1 = length img /\
  forall img', (img' = img1 \/ c_ro c = false /\
                exists p all nl, in_data all /\ img' = fst (fst (retire_two img1 p all nl))) ->
               recovered c img img'.
Proof.
  intros EJ RP. destruct (c_ro c) eqn:RO.
  - cbn [replayed] in RP. subst img1. split; [reflexivity|].
    intros img' [->|[? _]]; [left; reflexivity|discriminate].
  - split.
    + pose proof (replay_length img (mkjpos g s) je) as L.
      destruct (replay img (mkjpos g s) je); cbn [replayed] in RP; [subst; exact L|contradiction|subst; exact L].
    + intros img' W. right. split; [exact RO|]. exists g, s, je, img1. split; [exact EJ|]. split; [exact RP|].
      destruct W as [W|[_ W]]; [left|right]; exact W.
Qed.

Theorem open_image_outcome c img :
  match fst (open_image c img) with
  | Ok _ => True
  | Rej e => late e \/ snd (open_image c img) = img
  | Panic => False
  end /\ recovered c img (snd (open_image c img)).
Proof.
  assert (Early : forall e, (late e \/ snd (@Rej opened e, img) = img) /\ recovered c img (snd (@Rej opened e, img)))
    by (intros e; split; [right|left]; reflexivity).
  unfold open_image. cbv zeta.
  destruct (Nat.ltb (length img) 17); [apply Early|].
  destruct (negb _); [apply Early|].
  destruct (decode_meta _) as [m|]; [|apply Early].
  destruct (decode_journal _ _ _) as [[[g s] je]|] eqn:EJ; [|apply Early].
  pose proof (fun img1 => replay_recovered c img g s je img1 EJ) as RP.
  set (total := N.of_nat (length img)) in *.
  destruct (if c_ro c then ReplayOk img (mkjpos g s) else replay img (mkjpos g s) je) as [img1 p1| |img1];
    [|apply Early|].
  2:{ split; [left; exact I|]. apply (RP img1 eq_refl). left. reflexivity. }
  destruct (RP img1 eq_refl) as [L1 REC]. clear RP. cbn [fst snd].
  (* scan and expiry: whatever they queue lies in the data area *)
  set (st0 := mkrs [] _ 0 0 0 [] FEOX_DATA_START_BLOCK 0).
  assert (B0 : state_in_data st0) by (split; constructor).
  match goal with |- context [match ?r with Ok _ => _ | Rej _ => _ | Panic => _ end] =>
    assert (SC : outcome (fun x : rstate * nat => state_in_data (fst x)) False r) end.
  { apply (outcome_bind state_in_data).
    - (* S (length img1) blocks of fuel for an image of length img1 = total blocks *)
      eapply outcome_excuse;
        [|apply (scan_outcome _ _ _ _ state_in_data FEOX_DATA_START_BLOCK); [apply step_rel_in_data|apply N.le_refl|exact B0]].
      unfold total. lia.
    - intros st1 B1. apply (outcome_bind state_in_data); [|auto].
      destruct (c_now c) as [now|]; [|exact B1]. refine (expire_winners_outcome _ _ _ state_in_data _ _ _ (proj2 B1) _ B1).
      intros e st st' He [R I] EI [n ER]. split.
      + rewrite ER. apply push_retired_in_data; assumption.
      + rewrite EI. apply Forall_idx_remove. exact I. }
  match type of SC with outcome _ _ ?r => destruct r as [[st2 nl]|e|] end; cbn [outcome fst] in SC;
    [|split; [left; exact SC|apply REC; left; reflexivity]|contradiction].
  assert (RT : recovered c img (fst (fst (if c_ro c then (img1, p1, true) else retire_two img1 p1 (rs_retired st2) nl)))).
  { apply REC. destruct (c_ro c); [left; reflexivity|right]. split; [reflexivity|].
    exists p1, (rs_retired st2), nl. split; [apply SC|reflexivity]. }
  destruct (if c_ro c then (img1, p1, true) else retire_two img1 p1 (rs_retired st2) nl) as [[img2 p2] ok].
  cbn [fst] in RT.
  destruct (negb ok); [split; [left; exact I|exact RT]|].
  pose proof (gap_outcome st2 total False) as G. unfold gap in G.
  destruct (if rs_last_end st2 <? total then _ else _); cbn [outcome] in G;
    [split; [exact I|exact RT]|split; [left; exact G|exact RT]|contradiction].
Qed.

Theorem open_image_unrecognised c img :
  (17 <= length img)%nat ->
  (let mb := if select_meta (nth_block img 0) (nth_block img (N.to_nat FEOX_METADATA_BACKUP_BLOCK))
             then nth_block img (N.to_nat FEOX_METADATA_BACKUP_BLOCK) else nth_block img 0 in
   list_eqb (firstn 8 mb) SIGNATURE = false \/ decode_meta mb = None) ->
  open_image c img = (Rej EInvalidMetadata, img).
Proof.
  intros HL H. unfold open_image.
  destruct (Nat.ltb_spec (length img) 17); [lia|].
  cbv zeta in H. destruct H as [H|H].
  - rewrite H. reflexivity.
  - destruct (negb _); [reflexivity|]. rewrite H. reflexivity.
Qed.

(* An open that gets as far as the scan, with TTL off and a scan that queues nothing: the file it
   leaves is the replayed one, and what it reports is the scan's state after the release of the tail. *)
Theorem open_image_nothing_retired c img m jgen jslot je img1 p1 st1 st3 :
  c_now c = None ->
  (17 <= length img)%nat ->
  let total := N.of_nat (length img) in
  let mb := if select_meta (nth_block img 0) (nth_block img (N.to_nat FEOX_METADATA_BACKUP_BLOCK))
            then nth_block img (N.to_nat FEOX_METADATA_BACKUP_BLOCK) else nth_block img 0 in
  list_eqb (firstn 8 mb) SIGNATURE = true -> decode_meta mb = Some m ->
  decode_journal (slot_bytes img 0) (slot_bytes img 1) total = Some (jgen, jslot, je) ->
  (if c_ro c then ReplayOk img (mkjpos jgen jslot) else replay img (mkjpos jgen jslot) je) = ReplayOk img1 p1 ->
  scan (S (length img1)) c (m_version m) total img1 FEOX_DATA_START_BLOCK
       (mkrs [] (mkfs [] (total * FEOX_BLOCK_SIZE) 0 0) 0 0 0 [] FEOX_DATA_START_BLOCK 0)
       (if c_ro c then sort_by_start je else []) = Ok st1 ->
  rs_retired st1 = [] ->
  gap st1 total = Ok st3 ->
  open_image c img =
  (Ok (mkopened (m_version m) (rs_idx st3) (rs_fs st3) (rs_count st3) (rs_mem st3) (rs_disk st3)
                (rs_ambiguous st3) img1 p1), img1).
Proof.
  intros Hnow Hlen total mb Hsig Hdec Hj Hrep Sc Ret G. unfold gap in G.
  unfold open_image. fold total. destruct (Nat.ltb_spec (length img) 17); [lia|].
  fold mb. rewrite Hsig. cbn [negb]. rewrite Hdec, Hj, Hrep, Sc. cbn [bind]. rewrite Hnow. cbn [bind]. rewrite Ret.
  destruct (c_ro c); cbn [length retire_two Nat.sub skipn firstn retire_extents negb]; rewrite G; reflexivity.
Qed.

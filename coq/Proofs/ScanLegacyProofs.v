(* Data areas without retirement-marker runs -- what a legacy (v1 / v2) file at rest looks like --
   opened read-only with nothing journaled (C15: the migration source): records with pairwise
   distinct keys and free blocks in any order. *)
From Coq Require Import List NArith Bool Lia Arith.
From Feox Require Import Gen.Constants Model.Bytes Model.Codec
                         Model.FreeSpace Model.MetaJournal Model.Recovery Model.Migration
                         Proofs.ListFacts Proofs.BytesProofs Proofs.RecoveryProofs
                         Proofs.ScanAcceptsProofs Proofs.ScanQuiescentProofs Proofs.ScanGenerationsProofs Proofs.ScanExpiryProofs.
Import ListNotations.
Local Open Scope N_scope.

Definition plain_ok (version : N) (it : item) : Prop :=
  match it with IRec r => rec_ok version r | IMark _ => False | IFree => True end.

Lemma plain_item_ok version it : plain_ok version it -> item_ok version it.
Proof. destruct it; cbn; tauto. Qed.

Lemma plain_items_ok version its : Forall (plain_ok version) its -> Forall (item_ok version) its.
Proof. apply Forall_impl. apply plain_item_ok. Qed.

Lemma plain_has_no_marks version its n : Forall (plain_ok version) its -> ~ In (IMark n) its.
Proof. intros H Hin. rewrite Forall_forall in H. exact (H _ Hin). Qed.

Lemma recs_of_ok version r : forall its, Forall (item_ok version) its -> In r (recs_of its) -> rec_ok version r.
Proof.
  induction its as [|it t IH]; intros Hok Hr; [destruct Hr|]. pose proof (Forall_inv Hok) as Hit.
  destruct it as [r0|n|]; cbn [recs_of] in Hr; try exact (IH (Forall_inv_tail Hok) Hr).
  destruct Hr as [<-|Hr]; [exact Hit|exact (IH (Forall_inv_tail Hok) Hr)].
Qed.

Lemma placed_skipn version img : forall its sector r s,
  skipn (N.to_nat sector) img = ilayout version sector its ->
  In (r, s) (placed version sector its) ->
  exists rest, skipn (N.to_nat s) img = chunk_blocks (encode_extent version s r) (N.to_nat (need_of version r)) ++ rest.
Proof.
  induction its as [|it t IH]; intros sector r s Himg Hin; [destruct Hin|]. cbn [ilayout] in Himg.
  assert (Hskip : skipn (N.to_nat (sector + isize version it)) img = ilayout version (sector + isize version it) t).
  { rewrite N2Nat.inj_add. exact (skipn_past _ _ _ _ _ Himg (iblocks_length version sector it)). }
  destruct it as [r0|n|]; cbn [placed isize] in Hin, Hskip; try exact (IH _ _ _ Hskip Hin).
  destruct Hin as [E|Hin]; [|exact (IH _ _ _ Hskip Hin)].
  injection E as -> ->. eexists. exact Himg.
Qed.

Lemma placed_recs version : forall its sector, map fst (placed version sector its) = recs_of its.
Proof. induction its as [|[r|n|] t IH]; intros sector; cbn [placed recs_of map fst]; [|rewrite IH|..]; auto. Qed.

Lemma placed_in_recs version its sector r s : In (r, s) (placed version sector its) -> In r (recs_of its).
Proof. rewrite <- (placed_recs version its sector). apply (in_map fst). Qed.

(* with distinct keys a key names one record and one place *)
Lemma placed_distinct version : forall its sector r s r' s',
  distinct_keys (recs_of its) ->
  In (r, s) (placed version sector its) -> In (r', s') (placed version sector its) -> r_key r = r_key r' ->
  (r, s) = (r', s').
Proof.
  induction its as [|it t IH]; intros sector r s r' s' Hd H H' K; [destruct H|].
  destruct it as [r0|n|]; cbn [placed recs_of distinct_keys] in *; try exact (IH _ _ _ _ _ Hd H H' K).
  destruct Hd as [Hd1 Hd2].
  assert (Other : forall x sx, In (x, sx) (placed version (sector + need_of version r0) t) -> r_key r0 <> r_key x).
  { intros x sx Hx. apply list_eqb_neq. exact (Hd1 x (placed_in_recs _ _ _ _ _ Hx)). }
  destruct H as [E|H]; destruct H' as [E'|H']; try congruence.
  - injection E as <- <-. destruct (Other _ _ H' K).
  - injection E' as <- <-. destruct (Other _ _ H (eq_sym K)).
  - exact (IH _ _ _ _ _ Hd2 H H' K).
Qed.

Definition entries_of (version sector : N) (its : list item) : list entry :=
  map (fun p => entry_of version (fst p) (snd p)) (placed version sector its).

(* strictly increasing keys *)
Fixpoint ksorted (l : list (list N)) : Prop :=
  match l with
  | [] => True
  | k :: t => (forall k', In k' t -> key_ltb k k' = true) /\ ksorted t
  end.

Lemma isorted_keys l : isorted l -> ksorted (map e_key l).
Proof.
  induction l as [|e t IH]; cbn [isorted ksorted map]; intros H; [exact I|]. destruct H as [H1 H2]. split; [|exact (IH H2)].
  intros k' Hk. apply in_map_iff in Hk. destruct Hk as (e' & <- & He'). exact (H1 e' He').
Qed.

(* the whole file, opened read-only (the migration source) *)
Theorem read_only_open_of_a_file_without_markers allow img m jgen jslot its :
  (17 <= length img)%nat ->
  let total := N.of_nat (length img) in
  let mb := if select_meta (nth_block img 0) (nth_block img (N.to_nat FEOX_METADATA_BACKUP_BLOCK))
            then nth_block img (N.to_nat FEOX_METADATA_BACKUP_BLOCK) else nth_block img 0 in
  list_eqb (firstn 8 mb) SIGNATURE = true -> decode_meta mb = Some m ->
  decode_journal (slot_bytes img 0) (slot_bytes img 1) total = Some (jgen, jslot, []) ->
  total * FEOX_BLOCK_SIZE < U64 ->
  Forall (plain_ok (m_version m)) its -> distinct_keys (recs_of its) ->
  skipn (N.to_nat FEOX_DATA_START_BLOCK) img = ilayout (m_version m) FEOX_DATA_START_BLOCK its ->
  exists o,
    open_image (ro_cfg allow) img = (Ok o, img) /\
    o_version o = m_version m /\ o_ambiguous o = 0 /\ isorted (o_idx o) /\
    (forall e, In e (o_idx o) <-> In e (entries_of (m_version m) FEOX_DATA_START_BLOCK its)).
Proof.
  intros Hlen total mb Hsig Hdec Hj Hu Hok Hd Himg.
  destruct (open_of_a_quiescent_file (ro_cfg allow) img m jgen jslot its eq_refl Hlen Hsig Hdec
              (fun n H => False_ind _ (plain_has_no_marks _ _ n Hok H)) Hj Hu (plain_items_ok _ _ Hok) Hd Himg)
    as (st' & f & R & _ & E & _).
  destruct (irun_tracks (ro_cfg allow) (m_version m) its _ _ st' _ (tracks_sem_of _ _) R) as (Ei & _).
  cbn [sem_of rs_idx rs_retired rs_count] in Ei.
  eexists. split; [exact E|]. cbn [o_version o_ambiguous o_idx]. split; [reflexivity|].
  split; [exact (irun_ambiguous _ _ its _ _ st' R)|]. rewrite <- Ei.
  set (ps := placed (m_version m) FEOX_DATA_START_BLOCK its).
  assert (Hs : isorted (s_idx (fold_left (sem_step (m_version m)) ps (mksem [] [] 0)))) by (apply sem_fold_sorted; exact I).
  split; [exact Hs|]. intros e. unfold entries_of. fold ps. rewrite in_map_iff. split.
  - (* an indexed entry is found under its key, so it is a placed record's *)
    intros He. destruct (indexed_generations_are_genuine _ _ _ _ _ (isorted_find _ Hs e He)) as [H0|(r & s & Hp & ->)]; [discriminate|].
    exists (r, s). auto.
  - (* the entry indexed under a placed record's key is a placed record's with that key: the same *)
    intros ([r s] & <- & Hp). cbn [fst snd].
    destruct (newest_generation_wins (m_version m) ps (mksem [] [] 0) r s Hp) as (e' & Fe & _).
    destruct (indexed_generations_are_genuine _ _ _ _ _ Fe) as [H0|(r' & s' & Hp' & ->)]; [discriminate|].
    destruct (idx_find_In _ _ _ Fe) as [Hin K]. apply list_eqb_eq in K. cbn [entry_of e_key] in K.
    injection (placed_distinct _ _ _ _ _ _ _ Hd Hp Hp' (eq_sym K)) as <- <-. exact Hin.
Qed.

(* C15: what a migration of such a source reports *)
Definition mrec_of (version : N) (r : rec) : mrecord :=
  mkmrec (r_key r) (Some (r_value r)) (r_ts r) (if has_expiry version then r_exp r else 0).

Theorem migration_reports_exactly_the_records_of_the_source allow src m jgen jslot its :
  (17 <= length src)%nat ->
  let total := N.of_nat (length src) in
  let mb := if select_meta (nth_block src 0) (nth_block src (N.to_nat FEOX_METADATA_BACKUP_BLOCK))
            then nth_block src (N.to_nat FEOX_METADATA_BACKUP_BLOCK) else nth_block src 0 in
  list_eqb (firstn 8 mb) SIGNATURE = true -> decode_meta mb = Some m -> m_version m < 3 ->
  decode_journal (slot_bytes src 0) (slot_bytes src 1) total = Some (jgen, jslot, []) ->
  total * FEOX_BLOCK_SIZE < U64 ->
  Forall (plain_ok (m_version m)) its -> distinct_keys (recs_of its) ->
  (forall r, In r (recs_of its) -> N.of_nat (length (r_key r)) <= MAX_RECOVERABLE_KEY_SIZE) ->
  skipn (N.to_nat FEOX_DATA_START_BLOCK) src = ilayout (m_version m) FEOX_DATA_START_BLOCK its ->
  exists rep,
    migrate_spec src allow false = inl rep /\
    rep_version rep = m_version m /\ rep_ambiguous rep = 0 /\
    (forall x, In x (rep_records rep) <-> exists r, In r (recs_of its) /\ x = mrec_of (m_version m) r) /\
    ksorted (map mr_key (rep_records rep)).
Proof.
  intros Hlen total mb Hsig Hdec Hv Hj Hu Hok Hd Hk Himg.
  destruct (read_only_open_of_a_file_without_markers allow src m jgen jslot its Hlen Hsig Hdec Hj Hu Hok Hd Himg)
    as (o & E & Ev & Ea & Es & Eidx).
  set (version := m_version m) in *.
  (* the record the migration makes of a placed record's entry: its value is read back from its extent *)
  assert (Val : forall r s, In (r, s) (placed version FEOX_DATA_START_BLOCK its) ->
             mkmrec (e_key (entry_of version r s)) (read_value version src (entry_of version r s))
                    (e_ts (entry_of version r s)) (e_exp (entry_of version r s)) = mrec_of version r).
  { intros r s Hp. destruct (placed_skipn version src its _ r s Himg Hp) as (rest & Hs).
    pose proof (recs_of_ok version r its (plain_items_ok _ _ Hok) (placed_in_recs _ _ _ _ _ Hp)) as Rk.
    unfold entry_of, mrec_of. cbn [e_key e_ts e_exp]. rewrite (read_value_returns_the_value version s r Rk src rest Hs). reflexivity. }
  unfold migrate_spec. rewrite E. cbn [fst]. rewrite Ev. fold version.
  destruct (N.leb_spec 3 version) as [H3|_]; [lia|].
  assert (Hex : existsb (fun e => MAX_RECOVERABLE_KEY_SIZE <? N.of_nat (length (e_key e))) (o_idx o) = false).
  { destruct (existsb _ _) eqn:X; [|reflexivity]. apply existsb_exists in X. destruct X as (e & He & Hlt).
    apply Eidx, in_map_iff in He. destruct He as ([r s] & <- & Hp). cbn [fst snd entry_of e_key] in Hlt.
    specialize (Hk r (placed_in_recs _ _ _ _ _ Hp)). apply N.ltb_lt in Hlt. lia. }
  rewrite Hex. eexists. split; [reflexivity|]. cbn [rep_version rep_ambiguous rep_records].
  split; [reflexivity|]. split; [exact Ea|]. split.
  - intros x. rewrite in_map_iff. split.
    + intros (e & <- & He). apply Eidx, in_map_iff in He. destruct He as ([r s] & <- & Hp). cbn [fst snd].
      exists r. split; [exact (placed_in_recs _ _ _ _ _ Hp)|exact (Val r s Hp)].
    + intros (r0 & Hr & ->). rewrite <- (placed_recs version its FEOX_DATA_START_BLOCK) in Hr.
      apply in_map_iff in Hr. destruct Hr as ([r s] & <- & Hp). cbn [fst].
      exists (entry_of version r s). split; [exact (Val r s Hp)|].
      apply Eidx, in_map_iff. exists (r, s). auto.
  - rewrite map_map. cbn [mr_key]. apply isorted_keys. exact Es.
Qed.

(* non-vacuity: a concrete version-2 file (two records around a free block) *)
Definition ex_meta := mkmeta 2 0 0 (18*4096) 4096 0 0 0 1 (zeros 48).
Definition ex_rec1 := mkrec [107;49] [1;2;3] 5 77.
Definition ex_rec2 := mkrec [107;48] [9] 6 0.
Definition ex_its := [IRec ex_rec1; IFree; IRec ex_rec2].
Definition ex_src : image :=
  ((encode_meta ex_meta ++ zeros (BLOCK - length (encode_meta ex_meta))) :: repeat (zeros BLOCK) 15) ++ ilayout 2 16 ex_its.

Example a_legacy_file_meets_the_premises :
  let src := ex_src in let m := ex_meta in let its := ex_its in
  let total := N.of_nat (length src) in
  let mb := if select_meta (nth_block src 0) (nth_block src (N.to_nat FEOX_METADATA_BACKUP_BLOCK))
            then nth_block src (N.to_nat FEOX_METADATA_BACKUP_BLOCK) else nth_block src 0 in
  (17 <= length src)%nat /\
  list_eqb (firstn 8 mb) SIGNATURE = true /\ decode_meta mb = Some m /\ m_version m < 3 /\
  decode_journal (slot_bytes src 0) (slot_bytes src 1) total = Some (0, 1, []) /\
  total * FEOX_BLOCK_SIZE < U64 /\
  Forall (plain_ok (m_version m)) its /\ distinct_keys (recs_of its) /\
  (forall r, In r (recs_of its) -> N.of_nat (length (r_key r)) <= MAX_RECOVERABLE_KEY_SIZE) /\
  skipn (N.to_nat FEOX_DATA_START_BLOCK) src = ilayout (m_version m) FEOX_DATA_START_BLOCK its.
Proof.
  intros src m its total mb.
  split; [apply Nat.leb_le; vm_compute; reflexivity|]. split; [vm_compute; reflexivity|]. split; [vm_compute; reflexivity|].
  split; [reflexivity|]. split; [vm_compute; reflexivity|]. split; [apply N.ltb_lt; vm_compute; reflexivity|].
  split; [|split; [|split; [|reflexivity]]].
  - apply Forall_cons; [apply rec_ok_of_checks; vm_compute; reflexivity|].
    apply Forall_cons; [exact I|]. apply Forall_cons; [apply rec_ok_of_checks; vm_compute; reflexivity|]. apply Forall_nil.
  - split; [intros r' [<-|[]]; vm_compute; reflexivity|]. split; [intros r' []|exact I].
  - intros r [<-|[<-|[]]]; apply N.leb_le; vm_compute; reflexivity.
Qed.

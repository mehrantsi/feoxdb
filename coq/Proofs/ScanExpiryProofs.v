(* Expired winners (C11, recovery clause): after the scan has kept the newest generation of every
   key, remove_expired_recovery_winners takes out the entries whose expiry has passed.  A key whose
   newest generation is expired is absent afterwards -- no older generation takes its place --, every
   other key keeps its entry, and every release of the pass succeeds. *)
From Coq Require Import List NArith Bool Lia Arith.
From Feox Require Import Gen.Constants Model.Bytes Model.Codec
                         Model.FreeSpace Proofs.FreeSpaceProofs Model.Recovery
                         Proofs.ListFacts Proofs.BytesProofs Proofs.RecoveryProofs
                         Proofs.ScanAcceptsProofs Proofs.ScanQuiescentProofs Proofs.ScanGenerationsProofs.
Import ListNotations.
Local Open Scope N_scope.

Fixpoint isorted (l : list entry) : Prop :=
  match l with
  | [] => True
  | e :: t => (forall e', In e' t -> key_ltb (e_key e) (e_key e') = true) /\ isorted t
  end.

Lemma isorted_upsert x l : isorted l -> isorted (idx_upsert x l).
Proof.
  induction l as [|y t IH]; cbn [idx_upsert isorted]; intros H.
  - split; [intros e' []|exact I].
  - destruct H as [Hy Ht]. destruct (list_eqb (e_key y) (e_key x)) eqn:E.
    + apply list_eqb_eq in E. cbn [isorted]. split; [|exact Ht]. intros e' He'. rewrite <- E. exact (Hy e' He').
    + destruct (key_ltb (e_key x) (e_key y)) eqn:L.
      * cbn [isorted]. split; [|split; [exact Hy|exact Ht]].
        intros e' [<-|He']; [exact L|]. exact (key_ltb_trans _ _ _ L (Hy e' He')).
      * cbn [isorted]. split; [|exact (IH Ht)].
        apply Forall_forall, Forall_idx_upsert; [|apply Forall_forall; exact Hy].
        apply key_ltb_total; [exact L|]. rewrite list_eqb_sym. exact E.
Qed.

Lemma isorted_find l : isorted l -> forall e, In e l -> idx_find (e_key e) l = Some e.
Proof.
  induction l as [|y t IH]; intros H e He; [destruct He|]. destruct H as [Hy Ht]. cbn [idx_find].
  destruct He as [<-|He]; [rewrite list_eqb_refl; reflexivity|].
  rewrite (key_ltb_neq _ _ (Hy e He)). exact (IH Ht e He).
Qed.

Lemma isorted_remove k l : isorted l -> isorted (idx_remove k l).
Proof.
  induction l as [|y t IH]; cbn [idx_remove isorted]; intros H; [exact I|]. destruct H as [Hy Ht].
  destruct (list_eqb (e_key y) k); [exact Ht|]. cbn [isorted]. split; [|exact (IH Ht)].
  apply Forall_forall, Forall_idx_remove, Forall_forall. exact Hy.
Qed.

Lemma idx_find_remove k' l k : isorted l ->
  idx_find k (idx_remove k' l) = if list_eqb k' k then None else idx_find k l.
Proof.
  induction l as [|y t IH]; cbn [idx_remove idx_find isorted]; intros H; [destruct (list_eqb k' k); reflexivity|].
  destruct H as [Hy Ht]. destruct (list_eqb (e_key y) k') eqn:E.
  - apply list_eqb_eq in E. subst k'. destruct (list_eqb (e_key y) k) eqn:Ek; [|reflexivity].
    (* every later key is greater than y's *)
    apply list_eqb_eq in Ek. subst k. destruct (idx_find (e_key y) t) as [e|] eqn:F; [|reflexivity].
    destruct (idx_find_In _ _ _ F) as [Hin Hk]. rewrite list_eqb_sym, (key_ltb_neq _ _ (Hy e Hin)) in Hk. discriminate.
  - cbn [idx_find]. rewrite (IH Ht). destruct (list_eqb (e_key y) k) eqn:Ek; [|reflexivity].
    apply list_eqb_eq in Ek. subst k. rewrite list_eqb_sym, E. reflexivity.
Qed.

Definition expired (now : N) (e : entry) : bool := (0 <? e_exp e) && (e_exp e <? now).
(* the pass over `todo` takes key k out: some entry of `todo` has that key and is expired *)
Definition hit (now : N) (k : list N) (todo : list entry) : bool :=
  existsb (fun x => list_eqb (e_key x) k && expired now x) todo.

Lemma hit_none now k l : (forall x, In x l -> list_eqb (e_key x) k = false) -> hit now k l = false.
Proof.
  induction l as [|y t IH]; intros H; [reflexivity|]. cbn [hit existsb]. rewrite (H y (or_introl eq_refl)). cbn [andb orb].
  apply IH. intros x Hx. apply H. right. exact Hx.
Qed.

Lemma hit_sorted now k l : isorted l ->
  hit now k l = match idx_find k l with Some e => expired now e | None => false end.
Proof.
  induction l as [|y t IH]; intros H; [reflexivity|]. destruct H as [Hy Ht]. cbn [hit existsb idx_find].
  destruct (list_eqb (e_key y) k) eqn:E.
  - cbn [andb]. apply list_eqb_eq in E. subst k.
    assert (Z : hit now (e_key y) t = false).
    { apply hit_none. intros x Hx. rewrite list_eqb_sym. exact (key_ltb_neq _ _ (Hy x Hx)). }
    unfold hit in Z. rewrite Z, orb_false_r. reflexivity.
  - cbn [andb orb]. exact (IH Ht).
Qed.

Section Pass.
Variable version : N.
Variable c : rcfg.
Variable total now : N.

(* an entry taken out of the index and its extent released *)
Lemma SJ_remove sector st e f st2 :
  SJ version total sector st -> isorted (rs_idx st) -> idx_find (e_key e) (rs_idx st) = Some e ->
  Inv f -> dev_sectors f = total ->
  (forall b, free f b <-> free (rs_fs st) b \/ in_ext version e b) ->
  rs_idx st2 = idx_remove (e_key e) (rs_idx st) -> rs_fs st2 = f -> rs_last_end st2 = rs_last_end st ->
  SJ version total sector st2.
Proof.
  intros [[I D Lo Hi Fr] Nu Xt Dj] Hs Fe If Df Ff Ei Ef El.
  assert (Fnd : forall k e2, idx_find k (rs_idx st2) = Some e2 -> e_key e <> k /\ idx_find k (rs_idx st) = Some e2).
  { intros k e2. rewrite Ei, idx_find_remove by exact Hs. destruct (list_eqb (e_key e) k) eqn:E; [discriminate|].
    apply list_eqb_neq in E. split; assumption. }
  destruct (Xt _ _ Fe) as (_ & _ & X3).
  constructor; [constructor|..]; rewrite ?Ef, ?El; try assumption.
  - intros b Hb. apply Ff in Hb. destruct Hb as [Hb|Hb]; [exact (Fr b Hb)|unfold in_ext in Hb; lia].
  - intros b Hb (k & e2 & Fk & Ib). destruct (Fnd _ _ Fk) as [Nk Fk0]. apply Ff in Hb. destruct Hb as [Hb|Hb].
    + apply (Nu b Hb). exists k, e2. split; assumption.
    + exact (Dj _ _ _ _ Fe Fk0 Nk b Hb Ib).
  - intros k e2 Fk. exact (Xt _ _ (proj2 (Fnd _ _ Fk))).
  - intros k1 k2 e1 e2 Fa Fb. exact (Dj _ _ _ _ (proj2 (Fnd _ _ Fa)) (proj2 (Fnd _ _ Fb))).
Qed.

Theorem expire_winners_spec : forall todo sector st,
  sector <= total ->
  SJ version total sector st -> isorted (rs_idx st) -> isorted todo ->
  (forall e, In e todo -> idx_find (e_key e) (rs_idx st) = Some e) ->
  exists st',
    expire_winners c version now todo st = Ok st' /\
    SJ version total sector st' /\ isorted (rs_idx st') /\
    (forall k, idx_find k (rs_idx st') = if hit now k todo then None else idx_find k (rs_idx st)).
Proof.
  induction todo as [|e t IH]; intros sector st Hsec J Hs Hts Hfound.
  - exists st. auto.
  - destruct Hts as [Hte Htt]. cbn [expire_winners]. fold (expired now e).
    assert (Hft : forall e', In e' t -> idx_find (e_key e') (rs_idx st) = Some e') by (intros e' He'; apply Hfound; right; exact He').
    destruct (expired now e) eqn:X.
    + pose proof (Hfound e (or_introl eq_refl)) as Fe. fold (eblocks version e).
      destruct (sj_ext _ _ _ _ J _ _ Fe) as (X1 & X2 & X3). pose proof (sj_space _ _ _ _ J) as [I D Lo Hi Fr].
      destruct (fs_release_ok st (e_sector e) (eblocks version e) I) as (f1 & -> & I1 & D1 & F1).
      { unfold release_ok. repeat split; try lia. intros b Hb Hfree.
        apply (sj_unused _ _ _ _ J b Hfree). exists (e_key e), e. split; assumption. }
      cbn [bind with_fs rs_idx rs_fs rs_count rs_mem rs_disk rs_retired rs_last_end rs_ambiguous].
      match goal with |- context [expire_winners c version now t ?s] => set (st2 := s) end.
      assert (E2 : rs_idx st2 = idx_remove (e_key e) (rs_idx st) /\ rs_fs st2 = f1 /\ rs_last_end st2 = rs_last_end st)
        by (unfold st2, push_retired; destruct (c_ro c); repeat split).
      destruct E2 as (Ei & Ef & El).
      destruct (IH sector st2 Hsec) as (st' & E' & J' & S' & Spec').
      * apply (SJ_remove sector st e f1); try assumption. congruence.
      * rewrite Ei. apply isorted_remove. exact Hs.
      * exact Htt.
      * intros e' He'. rewrite Ei, idx_find_remove, (key_ltb_neq _ _ (Hte e' He')) by exact Hs. exact (Hft e' He').
      * exists st'. do 3 (split; [assumption|]).
        intros k. rewrite Spec', Ei, idx_find_remove by exact Hs. cbn [hit existsb]. rewrite X.
        destruct (list_eqb (e_key e) k); cbn [andb orb]; [|reflexivity]. fold (hit now k t). destruct (hit now k t); reflexivity.
    + destruct (IH sector st Hsec J Hs Htt Hft) as (st' & E' & J' & S' & Spec').
      exists st'. do 3 (split; [assumption|]).
      intros k. rewrite Spec'. cbn [hit existsb]. rewrite X, andb_false_r. reflexivity.
Qed.

(* the whole index handed to the pass (what open_image does): a key is exposed afterwards exactly
   when its entry is not expired -- and then with that very entry *)
Theorem expired_winners_disappear sector st :
  sector <= total ->
  SJ version total sector st -> isorted (rs_idx st) ->
  exists st',
    expire_winners c version now (rs_idx st) st = Ok st' /\
    SJ version total sector st' /\
    (forall k, idx_find k (rs_idx st') =
               match idx_find k (rs_idx st) with
               | Some e => if expired now e then None else Some e
               | None => None
               end).
Proof.
  intros Hsec J Hs.
  destruct (expire_winners_spec (rs_idx st) sector st Hsec J Hs Hs (isorted_find _ Hs)) as (st' & E & J' & _ & Spec).
  exists st'. do 2 (split; [assumption|]). intros k. rewrite Spec, hit_sorted by exact Hs.
  destruct (idx_find k (rs_idx st)) as [e|]; [destruct (expired now e); reflexivity|reflexivity].
Qed.

End Pass.

Lemma sem_fold_sorted version ps : forall a, isorted (s_idx a) -> isorted (s_idx (fold_left (sem_step version) ps a)).
Proof.
  apply (fold_left_inv (sem_step version) (fun a => isorted (s_idx a))). intros a [r s] H. unfold sem_step.
  destruct (idx_find (r_key r) (s_idx a)) as [ex|]; [destruct (r_ts r <? e_ts ex)|]; cbn [s_idx]; try exact H; apply isorted_upsert; exact H.
Qed.

(* recovery with TTL on: scan, then the expiry pass over the whole index.  A key is exposed
   afterwards exactly when its newest generation on the device has not expired, and then with that
   generation; a key whose newest generation has expired is absent although older generations of
   it are on the device.  Stated here: the entry the scan keeps is at least as new as every generation
   on the device, and the pass removes exactly the expired entries; that the entry is itself a
   generation on the device is scan_keeps_the_newest_generation_of_every_key. *)
Theorem recovery_hides_keys_whose_newest_generation_expired c version total now jl img its st0 fuel :
  c_ro c = false -> has_token version = true -> total <= U64MAX ->
  (length its < fuel)%nat ->
  rs_fs st0 = mkfs [] (total * FEOX_BLOCK_SIZE) 0 0 -> rs_last_end st0 = FEOX_DATA_START_BLOCK -> rs_idx st0 = [] ->
  total * FEOX_BLOCK_SIZE < U64 ->
  Forall (item_ok version) its ->
  skipn (N.to_nat FEOX_DATA_START_BLOCK) img = ilayout version FEOX_DATA_START_BLOCK its ->
  total = FEOX_DATA_START_BLOCK + isum version its -> 0 < isum version its ->
  exists st1 st2,
    scan fuel c version total img FEOX_DATA_START_BLOCK st0 jl = Ok st1 /\
    expire_winners c version now (rs_idx st1) st1 = Ok st2 /\
    (forall r s, In (r, s) (placed version FEOX_DATA_START_BLOCK its) ->
                 exists e, idx_find (r_key r) (rs_idx st1) = Some e /\ r_ts r <= e_ts e) /\
    (forall k, idx_find k (rs_idx st2) =
               match idx_find k (rs_idx st1) with
               | Some e => if expired now e then None else Some e
               | None => None
               end).
Proof.
  intros Hrw Htok Hmax Hfuel Hfs Hle Hidx Hu Hok Himg Htot Hpos.
  assert (J0 : SJ version total FEOX_DATA_START_BLOCK st0) by (apply SJ_initial; try assumption; lia).
  destruct (scan_computes_the_newest_wins_fold c version total jl img its fuel _ st0 Hrw Htok Hmax Hok J0 Himg Htot Hfuel)
    as (st1 & Sc & J1 & Sem).
  assert (Ei : rs_idx st1 = s_idx (fold_left (sem_step version) (placed version FEOX_DATA_START_BLOCK its) (sem_of st0))) by (rewrite <- Sem; reflexivity).
  assert (S1 : isorted (rs_idx st1)).
  { rewrite Ei. apply sem_fold_sorted. cbn [sem_of s_idx]. rewrite Hidx. exact I. }
  destruct (expired_winners_disappear version c total now total st1 (N.le_refl _) J1 S1) as (st2 & E2 & _ & Spec).
  exists st1, st2. do 2 (split; [assumption|]). split; [|exact Spec].
  rewrite Ei. apply newest_generation_wins.
Qed.

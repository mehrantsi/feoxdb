(* What evict_entries takes and what it leaves.  Over Model/Cache.v: a CLOCK pass that does
   not reach the target evicts every unreferenced entry it meets and clears the reference bit of
   the others.  So two passes always reach the low watermark; and if evicting every unreferenced
   entry would reach it, the first pass does, and every referenced entry is still there
   afterwards. *)
From Coq Require Import List NArith Bool Lia Permutation.
From Feox Require Import Gen.Constants Model.Cache Proofs.CacheProofs.
Import ListNotations.
Local Open Scope N_scope.

Fixpoint usum (b : list centry) : N :=
  match b with [] => 0 | e :: t => (if ce_ref e then 0 else ce_size e) + usum t end.
Fixpoint utotal (l : list (N * list centry)) : N :=
  match l with [] => 0 | (_, b) :: t => usum b + utotal t end.

Definition kept (e : centry) (b' : list centry) : Prop :=
  exists e', In e' b' /\ ce_key e' = ce_key e /\ ce_val e' = ce_val e /\ ce_size e' = ce_size e.

Lemma kept_self e b : In e b -> kept e b.
Proof. intros H. exists e. auto. Qed.

Lemma kept_tail e x b : kept e b -> kept e (x :: b).
Proof. intros (y & A & B). exists y. auto using in_cons. Qed.
Local Hint Resolve kept_self kept_tail in_eq in_cons : core.

Lemma kept_trans e b b' : kept e b -> (forall x, In x b -> kept x b') -> kept e b'.
Proof.
  intros (x & A & K1 & V1 & S1) H. destruct (H x A) as (y & B & K2 & V2 & S2).
  exists y. repeat split; congruence.
Qed.

Definition unref (b : list centry) : Prop := forall e, In e b -> ce_ref e = false.

Lemma unref_usum b : unref b -> usum b = bsum b.
Proof.
  induction b as [|e t IH]; cbn [usum bsum]; intros U; [reflexivity|].
  rewrite (U e), IH; unfold unref; auto.
Qed.

Lemma unref_utotal {l} : (forall i b, In (i, b) l -> unref b) -> utotal l = total l.
Proof.
  induction l as [|[i b] t IH]; cbn [utotal total]; intros U; [reflexivity|].
  rewrite (unref_usum b (U i b (in_eq _ _))), IH; eauto.
Qed.

Lemma utotal_perm {l l'} : Permutation l l' -> utotal l = utotal l'.
Proof. induction 1 as [|[i b] l l' _ IH|[i b] [j x] l|l l1 l' _ IH1 _ IH2]; cbn [utotal]; lia. Qed.

(* second chance: a referenced entry stays, with its bit cleared; an unreferenced one goes *)
Lemma sweep_bucket_clock {b} : forall {m tg ev b' m' ev' d},
  bsum b <= m -> sweep_bucket b m tg ev = (b', m', ev', d) ->
  (forall e, In e b -> ce_ref e = true -> kept e b') /\
  (d = false -> unref b' /\ m' + usum b = m).
Proof.
  induction b as [|e0 t IH]; intros m tg ev b' m' ev' d Hle H; cbn [sweep_bucket] in H; cbn [bsum] in Hle.
  - injection H as <- <- <- <-. split; [intros e []|]. intros _. split; [intros e []|]. cbn [usum]. lia.
  - cbn [usum]. destruct (ce_ref e0) eqn:R0.
    + set (e1 := mkce _ _ false _) in H.
      assert (K0 : forall b, kept e0 (e1 :: b)) by (intros b; exists e1; cbn; auto).
      destruct (m <=? tg).
      * injection H as <- <- <- <-. split; [|discriminate].
        intros e [<-|He] _; [apply K0 | auto].
      * destruct (sweep_bucket t m tg ev) as [[[t' m1] ev1] d1] eqn:E. injection H as <- <- <- <-.
        apply IH in E as (K & ND); [|lia]. split.
        -- intros e [<-|He] Hr; [apply K0 | auto].
        -- intros Hd. destruct (ND Hd) as (U & M). split; [|lia]. intros x [<-|Hx]; auto.
    + destruct (m - ce_size e0 <=? tg).
      * injection H as <- <- <- <-. split; [|discriminate].
        intros e [<-|He] Hr; [congruence | auto].
      * apply IH in H as (K & ND); [|lia]. split.
        -- intros e [<-|He] Hr; [congruence | auto].
        -- intros Hd. destruct (ND Hd) as (U & M). split; [exact U | lia].
Qed.

(* an entry of bucket i survives a pass if it is referenced or the pass does not visit i *)
Lemma sweep_pass_spares {order} : forall {all start m tg ev all' m' ev' done vis},
  BsInv all m -> reads order all -> sweep_pass order all start m tg ev = (all', m', ev', done, vis) ->
  forall i e, In e (bget i all) -> ce_ref e = true \/ ~ In i (map fst order) -> kept e (bget i all').
Proof.
  induction order as [|[i0 b] t IH]; intros all start m tg ev all' m' ev' done vis HI R H i e He Hc; cbn [sweep_pass] in H.
  - injection H as <- _ _ _ _. auto.
  - destruct (sweep_bucket b m tg ev) as [[[b1 m1] ev1] d1] eqn:E.
    destruct (sweep_head_inv HI R E) as (HI1 & R1 & _).
    destruct (sweep_bucket_clock (reads_head_le HI R) E) as (K & _).
    (* the rest of the pass, from the state with bucket i0 swept *)
    assert (KR : forall j x, In x (bget j (bset i0 b1 all)) ->
                   ce_ref x = true \/ ~ In j (map fst t) -> kept x (bget j all')).
    { destruct d1; [|eapply IH; eassumption].
      injection H as <- _ _ _ _. auto. }
    destruct R as (ND & G). inversion ND as [|? ? Hni _]; subst. pose proof (proj1 HI) as S.
    destruct (N.eqb_spec i i0) as [Ei|NE].
    + subst i. rewrite (G i0 b (or_introl eq_refl)) in He.
      assert (Hr : ce_ref e = true) by (destruct Hc as [Hr|Hn]; [exact Hr | destruct Hn; now left]).
      apply (kept_trans e b1); [exact (K e He Hr)|]. intros x Hx.
      apply KR; [rewrite bget_bset, N.eqb_refl by exact S; exact Hx | right; exact Hni].
    + apply KR; [rewrite bget_bset by exact S; rewrite (proj2 (N.eqb_neq i i0) NE); exact He|].
      cbn [map In] in Hc. tauto.
Qed.

(* a pass that does not reach the target takes the unreferenced mass of all it visits, and leaves
   the visited buckets without a reference bit *)
Lemma sweep_pass_takes {order} : forall {all start m tg ev all' m' ev' vis},
  BsInv all m -> reads order all -> sweep_pass order all start m tg ev = (all', m', ev', false, vis) ->
  m' + utotal order = m /\ forall i, In i (map fst order) \/ unref (bget i all) -> unref (bget i all').
Proof.
  induction order as [|[i0 b] t IH]; intros all start m tg ev all' m' ev' vis HI R H; cbn [sweep_pass] in H.
  - injection H as <- <- _ _. split; [cbn [utotal]; lia|]. intros i [[]|U]. exact U.
  - destruct (sweep_bucket b m tg ev) as [[[b1 m1] ev1] d1] eqn:E. destruct d1; [discriminate|].
    destruct (sweep_head_inv HI R E) as (HI1 & R1 & _).
    destruct (sweep_bucket_clock (reads_head_le HI R) E) as (_ & ND).
    destruct (ND eq_refl) as (U1 & M1). apply IH in H as (M & U); [|assumption..].
    split; [cbn [utotal]; lia|].
    intros i Hi. apply U. rewrite bget_bset by apply HI. destruct (N.eqb_spec i i0) as [Ei|NE]; [right; exact U1|].
    destruct Hi as [[Hi|Hi]|Hi]; [cbn [fst] in Hi; congruence|auto..].
Qed.

(* the first pass of a scan either ends the loop at or below the target (possibly without running
   at all), or has taken every unreferenced entry and cleared every reference bit *)
Lemma evict_scans_pass {n bs hnd m tg ev bs' h' m' ev'} :
  BsInv bs m -> evict_scans (S n) bs hnd m tg ev = (bs', h', m', ev') ->
  exists bs1 h1 m1 ev1,
    BsInv bs1 m1 /\ (forall i e, In e (bget i bs) -> ce_ref e = true -> kept e (bget i bs1)) /\
    ((m1 <= tg /\ bs' = bs1 /\ m' = m1) \/
     (m1 + utotal bs = m /\ (forall i b, In (i, b) bs1 -> unref b) /\
      evict_scans n bs1 h1 m1 tg ev1 = (bs', h', m', ev'))).
Proof.
  intros HI H. cbn [evict_scans] in H. destruct (N.leb_spec m tg) as [L|_].
  - injection H as <- <- <- <-. exists bs, hnd, m, ev. split; [exact HI|].
    split; [auto | left; auto].
  - set (start := hnd mod CACHE_BUCKETS) in H.
    pose proof (rotate_perm start bs) as Rot. pose proof (reads_rotate start bs (proj1 HI)) as R.
    destruct (sweep_pass _ _ _ _ _ _) as [[[[bs1 m1] ev1] d] v] eqn:P.
    destruct (full_pass_acct HI P) as (HI1 & D).
    exists bs1, (hnd + v), m1, ev1. split; [exact HI1|].
    split; [intros i e He Hr; apply (sweep_pass_spares HI R P i e He); left; exact Hr|].
    destruct d; [injection H as <- <- <- <-; left; auto | right].
    destruct (sweep_pass_takes HI R P) as (M & U). rewrite (utotal_perm Rot) in M.
    split; [exact M|]. split; [|exact H].
    intros i b Hin. rewrite <- (bget_In i bs1 b (proj1 HI1) Hin). apply U.
    (* every stored bucket is visited; the others are empty *)
    destruct (bget_cases i bs) as [E|Hi]; [right; rewrite E; intros e []|left].
    apply (Permutation_in _ (Permutation_sym (Permutation_map fst Rot))). exact (in_map fst _ _ Hi).
Qed.

(* with no reference bit set anywhere, one pass reaches the target: if it does not stop early it
   evicts everything *)
Lemma evict_scans_unref {n bs hnd m tg ev bs' h' m' ev'} :
  BsInv bs m -> (forall i b, In (i, b) bs -> unref b) ->
  evict_scans (S n) bs hnd m tg ev = (bs', h', m', ev') -> m' <= tg.
Proof.
  intros HI U H.
  destruct (evict_scans_pass HI H) as (bs1 & h1 & m1 & ev1 & _ & _ & [(L & _ & ->)|(M & _ & H1)]); [exact L|].
  rewrite (unref_utotal U) in M. destruct HI as (_ & -> & _). assert (m1 = 0) by lia. subst m1.
  rewrite evict_scans_stop in H1 by apply N.le_0_l. injection H1 as <- <- <- <-. apply N.le_0_l.
Qed.

(* two passes suffice: what the first one keeps, it leaves unreferenced *)
Theorem evict_scans_two_passes {n bs hnd m tg ev bs' h' m' ev'} :
  BsInv bs m -> evict_scans (S (S n)) bs hnd m tg ev = (bs', h', m', ev') -> m' <= tg.
Proof.
  intros HI H.
  destruct (evict_scans_pass HI H) as (bs1 & h1 & m1 & ev1 & HI1 & _ & [(L & _ & ->)|(_ & U & H1)]); [exact L|].
  exact (evict_scans_unref HI1 U H1).
Qed.

(* if the unreferenced entries suffice, the first pass stops at the target or leaves the usage
   there, and no further pass runs *)
Lemma evict_scans_spares {n bs hnd m tg ev bs' h' m' ev'} :
  BsInv bs m -> m <= tg + utotal bs -> evict_scans n bs hnd m tg ev = (bs', h', m', ev') ->
  forall i e, In e (bget i bs) -> ce_ref e = true -> kept e (bget i bs').
Proof.
  intros HI Hs H i e He Hr. destruct n as [|n].
  - cbn [evict_scans] in H. injection H as <- _ _ _. auto.
  - destruct (evict_scans_pass HI H) as (bs1 & h1 & m1 & ev1 & _ & K & [(_ & -> & _)|(M & _ & H1)]).
    + auto.
    + rewrite evict_scans_stop in H1 by lia. injection H1 as <- _ _ _. auto.
Qed.

(* the hypothesis is met by a cache whose unreferenced entries alone exceed the distance to the low
   watermark; and it is needed: with nothing unreferenced the sweep must take referenced entries *)
Theorem without_enough_unreferenced_some_referenced_entry_goes :
  exists c, CInv c /\ low c < cmem c /\ utotal (buckets c) = 0 /\ cmem (cevict c) < cmem c.
Proof.
  exists (mkcache [(3, [mkce [1] [2] true 10])] 0 8 4 10 0 0). split; [|vm_compute; repeat split; reflexivity].
  constructor; cbn.
  - split; [intros j b []|exact I].
  - reflexivity.
  - intros i b [[= <- <-]|[]]. cbn. split; [intros e' []|exact I].
Qed.
